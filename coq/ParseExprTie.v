(* Ties the generated parser facts (gen/ParserShape.v) to the proved loop shape and checks the generated
   operator table; Section Eval: evaluating a left nest is the left fold of its operators (C03 chain_eval). *)
From Coq Require Import ZArith NArith Bool List.
From Garden Require Import ParseExpr gen.ParserShape.
Import ListNotations.

Lemma shape_eqb_eq a b : shape_eqb a b = true -> a = b.
Proof.
  destruct a as [a1 a2 a3], b as [b1 b2 b3]. unfold shape_eqb; cbn.
  intros H. apply andb_true_iff in H as [H H3]. apply andb_true_iff in H as [H1 H2].
  apply Bool.eqb_prop in H1, H2, H3. now subst.
Qed.

Lemma shape_is_good_lemma : arm_recognised = true /\ shape_eqb current_shape good_shape = true.
Proof. split; vm_compute; reflexivity. Qed.

Lemma current_is_good : current_shape = good_shape.
Proof. apply shape_eqb_eq. apply shape_is_good_lemma. Qed.

Definition all_kinds : list opk :=
  [KAdd; KAddFloat; KSubtract; KSubtractFloat; KMultiply; KMultiplyFloat; KDivide; KDivideFloat; KModulo; KExponent;
   KEqual; KNotEqual; KLessThan; KLessThanOrEqual; KGreaterThan; KGreaterThanOrEqual; KAnd; KOr; KBitwiseAnd;
   KBitwiseOr; KStringConcat].

Scheme Boolean Equality for opk.

Fixpoint text_eqb (a b : list N) : bool :=
  match a, b with
  | [], [] => true
  | x :: a', y :: b' => N.eqb x y && text_eqb a' b'
  | _, _ => false
  end.

Fixpoint distinct_texts (l : list (list N * opk)) : bool :=
  match l with
  | [] => true
  | (t, _) :: l' => negb (existsb (fun x => text_eqb t (fst x)) l') && distinct_texts l'
  end.

(* every operator kind has exactly one token, and no token text is listed twice *)
Definition table_ok (t : list (list N * opk)) : bool :=
  Nat.eqb (length t) 21 && distinct_texts t &&
  forallb (fun k => Nat.eqb (length (filter (fun x => opk_beq k (snd x)) t)) 1) all_kinds.

Lemma op_table_ok_lemma : table_ok op_table = true.
Proof. vm_compute. reflexivity. Qed.

Section Eval.
Variable binop : opk -> Z -> Z -> option Z.
Variable env : N -> option Z.

Fixpoint ev (e : pexpr) : option Z :=
  match e with
  | PInt z => Some z
  | PVar x => env x
  | PParen e' => ev e'
  | PBin o l r => match ev l, ev r with Some a, Some b => binop o a b | _, _ => None end
  end.

Lemma ev_left_nest rest : forall x,
  ev (left_nest x rest) =
  fold_left (fun acc oa => match acc, ev (snd oa) with Some a, Some b => binop (fst oa) a b | _, _ => None end) rest (ev x).
Proof.
  induction rest as [|[o a] c IH]; intros x; cbn [left_nest fold_left fst snd]; [reflexivity|].
  unfold left_nest in IH. rewrite IH. reflexivity.
Qed.
End Eval.
