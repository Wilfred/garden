(* The refactorings of Refactor.v:
   - rename rewrites exactly the occurrences that resolve to the binder (rename_exact_thm), leaves the resolution table
     as it was (rename_preserves_resolution_thm), and to a fresh name it preserves the runs (rename_fresh_preserves_thm);
   - wrap-in-dbg only adds lines to stderr (dbg_transparent_thm);
   - extract-variable at a covered position preserves the runs that end without error (extract_var_preserves_thm).
   The three statements about runs rest on the simulation of ScopeProps.v. *)
From Coq Require Import List ZArith Bool Arith Lia.
Import ListNotations.
Require Import Garden.Scope Garden.Refactor Garden.ScopeProps.

Definition oo_eqb (a c : option oid) : bool :=
  match a, c with
  | Some x, Some y => Nat.eqb x y
  | None, None => true
  | _, _ => false
  end.

(* a hypothesis about all the occurrences of a construct becomes hypotheses about those of its parts *)
Ltac occs_inv :=
  repeat match goal with
         | H : _ (_ ++ _) |- _ => apply Forall_app in H; destruct H
         | H : _ (_ :: _) |- _ => apply Forall_cons_iff in H; destruct H
         end.

Section Exact.
  Variable funs : list fundef.
  Variable b : oid.
  Variable new : name.

  (* occurrences, resolution table and renamed occurrences go row by row: same id, and the new name is read off the table *)
  Inductive aligned : list (oid * name) -> list (oid * option oid) -> list (oid * name) -> Prop :=
  | al_nil : aligned [] [] []
  | al_cons o x d [l t l'] : aligned l t l' -> aligned ((o, x) :: l) ((o, d) :: t) ((o, rn_use b new d x) :: l').

  Lemma al_app [l t l' m s m'] : aligned l t l' -> aligned m s m' -> aligned (l ++ m) (t ++ s) (l' ++ m').
  Proof. induction 1; simpl; intros; [assumption|constructor; auto]. Qed.

  Lemma al_params ps : aligned ps (map (fun p => (fst p, Some (fst p))) ps) (rn_params b new ps).
  Proof. induction ps as [|[d x] ps IH]; simpl; [constructor|exact (al_cons d x (Some d) IH)]. Qed.

  Lemma al_flat_map {A} (f : A -> _) g h (l : list A) :
    (forall a, aligned (f a) (g a) (h a)) -> aligned (flat_map f l) (flat_map g l) (flat_map h l).
  Proof. intros H. induction l; simpl; [constructor|apply al_app; auto]. Qed.

  Lemma al_syntax :
    (forall e sc, aligned (occ_expr e) (res_expr funs sc e) (occ_expr (rn_expr funs b new sc e))) /\
    (forall es sc, aligned (occ_exprs es) (res_exprs funs sc es) (occ_exprs (rn_exprs funs b new sc es))) /\
    (forall bl sc, aligned (occ_block bl) (res_block funs sc bl) (occ_block (rn_block funs b new sc bl))) /\
    (forall s sc, aligned (occ_stmt s) (res_stmt funs sc s) (occ_stmt (rn_stmt funs b new sc s))).
  Proof.
    (* simpl makes a mess of occ_* (rn_* ..): each case gives the rows and leaves the unfolding to conversion *)
    apply syntax_mutind; intros.
    - (* EInt *) exact al_nil.
    - (* EBool *) exact al_nil.
    - (* EVar *) exact (al_cons u x _ al_nil).
    - (* EBin *) exact (al_app (H sc) (H0 sc)).
    - (* ECall *) exact (al_app (H sc) (H0 sc)).
    - (* EFun *) exact (al_app (al_params ps) (H _)).
    - (* EIf *) exact (al_app (H sc) (al_app (H0 _) (H1 _))).
    - (* EDbg *) exact (H sc).
    - (* EPrint *) exact (H sc).
    - (* ENil *) exact al_nil.
    - (* ECons *) exact (al_app (H sc) (H0 sc)).
    - (* BNil *) exact al_nil.
    - (* BCons *) exact (al_app (H sc) (H0 _)).
    - (* SLet *) exact (al_cons b0 x (Some b0) (H sc)).
    - (* SAssign *) exact (al_cons u x _ (H sc)).
    - (* SExpr *) exact (H sc).
    - (* SWhile *) exact (al_app (H sc) (H0 _)).
  Qed.
End Exact.

Lemma flat_map_map_in {A B C} (f : A -> B) (g : B -> list C) l : flat_map g (map f l) = flat_map (fun x => g (f x)) l.
Proof. induction l; simpl; auto. rewrite IHl. reflexivity. Qed.

Lemma flat_map_ext_in' {A B} (f g : A -> list B) l : (forall a, In a l -> f a = g a) -> flat_map f l = flat_map g l.
Proof.
  induction l as [|a l IH]; simpl; intros H; auto. rewrite (H a) by auto. rewrite IH; auto.
Qed.

Lemma al_prog b new p : aligned b new (occ_prog p) (res_prog p) (occ_prog (rename b new p)).
Proof.
  destruct (al_syntax (fst p) b new) as [_ [_ [Hb _]]].
  unfold occ_prog, rename. cbn [fst snd]. rewrite flat_map_map_in.
  apply al_app; [|apply Hb]. apply al_flat_map. intros fd.
  exact (al_cons b new _ _ (Some (fd_id fd)) (al_app b new (al_params b new _) (Hb _ _))).
Qed.

Lemma assoc_nodup {A} (l : list (oid * A)) k v : NoDup (map fst l) -> In (k, v) l -> assoc_oid l k = Some v.
Proof.
  induction l as [|[k0 v0] l IH]; simpl; intros Hnd Hin; [contradiction|].
  inversion Hnd as [|? ? Hnin Hnd']; subst.
  destruct Hin as [E|Hin].
  - inversion E; subst. rewrite Nat.eqb_refl. reflexivity.
  - destruct (Nat.eqb_spec k k0) as [->|_]; auto.
    exfalso. apply Hnin. apply (in_map fst) in Hin. exact Hin.
Qed.

Lemma al_assoc b new l t l' : aligned b new l t l' -> NoDup (map fst l) ->
  l' = map (fun ox => (fst ox, rn_use b new (match assoc_oid t (fst ox) with Some r => r | None => None end) (snd ox))) l.
Proof.
  induction 1 as [|o x d l t l' H IH]; simpl; intros Hnd; [reflexivity|].
  inversion Hnd as [|? ? Hnin Hnd']; subst. rewrite Nat.eqb_refl, (IH Hnd'). f_equal.
  apply map_ext_in. intros [o' x'] Hin. simpl.
  destruct (Nat.eqb_spec o' o) as [->|_]; [|reflexivity]. destruct Hnin. exact (in_map fst _ _ Hin).
Qed.

(* the occurrences of the renamed program: same ids in the same order; an occurrence is called `new` exactly when it
   refers to b (a binder refers to itself); every other occurrence keeps its name *)
Theorem rename_exact_thm : forall (p : program) (b : oid) (new : name),
  NoDup (map fst (occ_prog p)) ->
  occ_prog (rename b new p)
  = map (fun ox => (fst ox, if oo_eqb (resolve p (fst ox)) (Some b) then new else snd ox)) (occ_prog p).
Proof.
  intros p b new Hnd. rewrite (al_assoc b new _ _ _ (al_prog b new p) Hnd).
  apply map_ext. intros [o x]. unfold resolve. simpl. destruct (assoc_oid (res_prog p) o) as [[d|]|]; reflexivity.
Qed.

(* the set form: the rewritten occurrence ids are {b} U {u | resolve p u = Some b} (resolve p b = Some b when b is a
   binder of p), nothing else changes *)
Corollary rename_exact_set : forall (p : program) (b : oid) (new : name) (o : oid) (x : name),
  NoDup (map fst (occ_prog p)) -> In (o, x) (occ_prog p) ->
  (resolve p o = Some b -> In (o, new) (occ_prog (rename b new p))) /\
  (resolve p o <> Some b -> In (o, x) (occ_prog (rename b new p))).
Proof.
  intros p b new o x Hnd Hin. rewrite rename_exact_thm by auto.
  split; intros H.
  - apply in_map_iff. exists (o, x). simpl. rewrite H. simpl. rewrite Nat.eqb_refl. auto.
  - apply in_map_iff. exists (o, x). simpl. split; auto.
    destruct (resolve p o) as [d|]; simpl; auto.
    destruct (Nat.eqb_spec d b) as [->|_]; auto. congruence.
Qed.

Lemma find_fun_map (F : fundef -> fundef) l g :
  (forall fd, In fd l -> fd_name (F fd) = fd_name fd) ->
  find_fun (map F l) g = option_map F (find_fun l g).
Proof.
  induction l as [|fd l IH]; simpl; intros H; auto.
  rewrite (H fd) by auto. destruct (Nat.eqb g (fd_name fd)); auto.
Qed.

Lemma find_fun_in l g fd : find_fun l g = Some fd -> In fd l.
Proof.
  induction l as [|fd0 l IH]; simpl; [discriminate|].
  destruct (Nat.eqb g (fd_name fd0)); [intros H; inversion H; auto|auto].
Qed.

Lemma lookup_fun_id_find l g : lookup_fun_id l g = option_map fd_id (find_fun l g).
Proof. induction l as [|fd l IH]; simpl; auto. destruct (Nat.eqb g (fd_name fd)); auto. Qed.

Lemma rn_block_cons funs b new sc s rest :
  rn_block funs b new sc (BCons s rest) = BCons (rn_stmt funs b new sc s) (rn_block funs b new (stmt_scope s sc) rest).
Proof. reflexivity. Qed.

Lemma occ_prog_parts (P : oid * name -> Prop) funs main :
  Forall P (occ_prog (funs, main)) ->
  (forall fd, In fd funs -> P (fd_id fd, fd_name fd) /\ Forall P (fd_params fd) /\ Forall P (occ_block (fd_body fd)))
  /\ Forall P (occ_block main).
Proof.
  intros H. apply Forall_app in H. destruct H as [Hf Hm]. split; [|exact Hm].
  intros fd Hfd. rewrite Forall_flat_map, Forall_forall in Hf. specialize (Hf fd Hfd).
  apply Forall_cons_iff in Hf. destruct Hf as [Hid Hf]. apply Forall_app in Hf. auto.
Qed.

Section RenameSim.
  Variable funs : list fundef.
  Variable b : oid.
  Variable xb new : name.

  Definition okr (od : option oid) (x : name) : Prop := x <> new /\ (od = Some b -> x = xb).
  Definition ok_occs : list (oid * name) -> Prop := okps okr.

  Lemma okr_use od x : okr od x -> okr None x.
  Proof. intros [Hx _]. split; [exact Hx|discriminate]. Qed.

  Lemma rn_use_inj od x d y :
    okr od x -> okr (Some d) y -> x <> y -> rn_use b new od x <> rn_use b new (Some d) y.
  Proof.
    intros [Hx Hxb] [Hy Hyb] Hne.
    destruct od as [d0|]; simpl; [destruct (Nat.eqb_spec d0 b) as [->|]|]; destruct (Nat.eqb_spec d b) as [->|]; auto.
    rewrite Hxb, Hyb in Hne; auto.
  Qed.

  Hypothesis Hb : forall fd, In fd funs -> fd_id fd <> b.

  Lemma rn_use_resolve sc x : rn_use b new (resolve_name funs sc x) x = use_name (rn_use b new) sc x.
  Proof.
    unfold use_name, resolve_name. destruct (lookup_s sc x); [reflexivity|]. rewrite lookup_fun_id_find.
    destruct (find_fun funs x) as [fd|] eqn:E; simpl; auto.
    destruct (Nat.eqb_spec (fd_id fd) b) as [E'|_]; auto. exfalso. eapply Hb; eauto using find_fun_in.
  Qed.

  Lemma rn_sim :
    (forall e sc, ok_occs (occ_expr e) -> sim_e (rn_use b new) okr False sc e (rn_expr funs b new sc e)) /\
    (forall es sc, ok_occs (occ_exprs es) -> sim_es (rn_use b new) okr False sc es (rn_exprs funs b new sc es)) /\
    (forall bl sc, ok_occs (occ_block bl) -> sim_b (rn_use b new) okr False sc bl (rn_block funs b new sc bl)) /\
    (forall s sc, ok_occs (occ_stmt s) -> sim_s (rn_use b new) okr False sc s (rn_stmt funs b new sc s)).
  Proof.
    apply syntax_mutind; intros; simpl in *; occs_inv; try apply SE_core; constructor; eauto using okr_use, rn_use_resolve.
  Qed.

  Hypothesis Hfuns : forall fd, In fd funs -> ok_occs (fd_params fd) /\ ok_occs (occ_block (fd_body fd)).

  Lemma rn_funs_ok g :
    option_rel (sim_fun (rn_use b new) okr False) (find_fun funs g) (find_fun (map (rn_fundef funs b new) funs) g).
  Proof.
    rewrite find_fun_map.
    - destruct (find_fun funs g) as [fd|] eqn:E; simpl; auto.
      destruct (Hfuns fd (find_fun_in _ _ _ E)) as [Hps Hbody].
      split; [exact Hps|]. split; [reflexivity|]. apply rn_sim. exact Hbody.
    - intros fd Hin. simpl. unfold rn_bind.
      destruct (Nat.eqb_spec (fd_id fd) b) as [E|_]; auto. exfalso. eapply Hb; eauto.
  Qed.

  Lemma rename_sims f :
    sims (rn_use b new) okr (fun _ => False) False funs (map (rn_fundef funs b new) funs) eq f f.
  Proof.
    apply sim_lockstep.
    - (* rho_none *) reflexivity.
    - (* rho_inj *) exact rn_use_inj.
    - (* rho_extra: there are no extra names *) auto.
    - (* funs_ok *) exact rn_funs_ok.
    - (* outs_refl *) reflexivity.
    - (* outs_app *) intros; subst; reflexivity.
    - (* ~ wraps *) auto.
  Qed.
End RenameSim.

Lemma ok_occs_prog p b xb new :
  NoDup (map fst (occ_prog p)) -> In (b, xb) (occ_prog p) -> ~ In new (map snd (occ_prog p)) ->
  ok_occs b xb new (occ_prog p).
Proof.
  intros Hnd Hin Hfresh. apply Forall_forall. intros [o x] Hox. split; simpl.
  - intros ->. apply Hfresh. apply (in_map snd) in Hox. exact Hox.
  - intros E. inversion E; subst o. apply (assoc_nodup _ _ _ Hnd) in Hin, Hox. congruence.
Qed.

Theorem rename_fresh_preserves_thm : forall (p : program) (b : oid) (xb new : name),
  NoDup (map fst (occ_prog p)) ->
  In (b, xb) (occ_prog p) ->
  (forall fd, In fd (fst p) -> fd_id fd <> b) ->
  ~ In new (map snd (occ_prog p)) ->
  forall fuel, run fuel (rename b new p) = run fuel p.
Proof.
  intros [funs main] b xb new Hnd Hin Hb Hfresh fuel. simpl in Hb.
  destruct (occ_prog_parts _ _ _ (ok_occs_prog _ b xb new Hnd Hin Hfresh)) as [Hfuns Hmain].
  pose proof (sims_run fuel fuel main _
                (rename_sims funs b xb new Hb (fun fd Hfd => proj2 (Hfuns fd Hfd)) fuel)
                (proj1 (proj2 (proj2 (rn_sim funs b xb new Hb))) main [[]] Hmain)) as H.
  unfold rename; cbn [fst snd].
  destruct (run fuel (funs, main)) as [[o res]|].
  - destruct H as [o' [-> <-]]. reflexivity.
  - destruct H as [[]|H]. exact H.
Qed.

(* The resolution table survives the renaming: the renamed code is resolved in the renamed scopes (rn_scope), where the
   new name of a use finds the binder that the old name found *)
Section ResolveSim.
  Variable funs : list fundef.
  Variable b : oid.
  Variable xb new : name.

  Let funs' := map (rn_fundef funs b new) funs.

  Definition sok (fr : sframe) : Prop := Forall (fun yd => okr b xb new (Some (snd yd)) (fst yd)) fr.
  Definition sokS (sc : scope) : Prop := Forall sok sc.

  Definition rn_sframe (fr : sframe) : sframe := map (fun yd => (rn_bind b new (snd yd) (fst yd), snd yd)) fr.
  Definition rn_scope (sc : scope) : scope := map rn_sframe sc.

  Lemma frame_lookup fr y : sok fr -> y <> new ->
    okr b xb new (lookup_frame_s fr y) y
    /\ lookup_frame_s (rn_sframe fr) (rn_use b new (lookup_frame_s fr y) y) = lookup_frame_s fr y.
  Proof.
    induction fr as [|[z dz] fr IH]; simpl; intros Hok Hy.
    - split; [split; [exact Hy|discriminate]|reflexivity].
    - inversion Hok as [|? ? Hz Hfr]; subst. destruct (IH Hfr Hy) as [Hyd IH'].
      destruct (Nat.eqb_spec y z) as [->|Hne].
      + split; [exact Hz|]. change (rn_use b new (Some dz) z) with (rn_bind b new dz z). rewrite Nat.eqb_refl. reflexivity.
      + split; [exact Hyd|].
        destruct (Nat.eqb_spec (rn_use b new (lookup_frame_s fr y) y) (rn_bind b new dz z)) as [E|_]; [|exact IH'].
        destruct (rn_use_inj b xb new _ _ _ _ Hyd Hz Hne E).
  Qed.

  Lemma lookup_frame_s_app fr fr2 y :
    lookup_frame_s (fr ++ fr2) y = match lookup_frame_s fr y with Some d => Some d | None => lookup_frame_s fr2 y end.
  Proof. induction fr as [|[z dz] fr IH]; simpl; auto. destruct (Nat.eqb y z); auto. Qed.

  Lemma lookup_s_concat sc y : lookup_s sc y = lookup_frame_s (concat sc) y.
  Proof. induction sc as [|fr sc IH]; simpl; auto. rewrite lookup_frame_s_app, IH. reflexivity. Qed.

  Definition funframe (l : list fundef) : sframe := map (fun fd => (fd_name fd, fd_id fd)) l.

  Lemma lookup_fun_frame l y : lookup_fun_id l y = lookup_frame_s (funframe l) y.
  Proof. induction l as [|fd l IH]; simpl; auto. destruct (Nat.eqb y (fd_name fd)); auto. Qed.

  Lemma resolve_flat l sc y : resolve_name l sc y = lookup_frame_s (concat sc ++ funframe l) y.
  Proof. unfold resolve_name. rewrite lookup_frame_s_app, lookup_s_concat, lookup_fun_frame. reflexivity. Qed.

  Lemma funframe_rn : funframe funs' = rn_sframe (funframe funs).
  Proof. unfold funs', funframe, rn_sframe. rewrite !map_map; auto. Qed.

  Hypothesis Hfok : sok (funframe funs).

  Lemma resolve_rn sc y : sokS sc -> y <> new ->
    resolve_name funs' (rn_scope sc) (rn_use b new (resolve_name funs sc y) y) = resolve_name funs sc y.
  Proof.
    intros Hok Hy. rewrite !resolve_flat, funframe_rn.
    replace (concat (rn_scope sc)) with (rn_sframe (concat sc)) by apply concat_map.
    unfold rn_sframe. rewrite <- map_app.
    apply frame_lookup; auto. apply Forall_app. split; [apply Forall_concat; exact Hok|exact Hfok].
  Qed.

  Lemma rn_scope_push y d sc : rn_scope (push_s y d sc) = push_s (rn_bind b new d y) d (rn_scope sc).
  Proof. destruct sc; reflexivity. Qed.

  Lemma sokS_push y d sc : sokS sc -> okr b xb new (Some d) y -> sokS (push_s y d sc).
  Proof.
    intros Hok Hyd. destruct sc as [|fr sc]; simpl.
    - constructor; [constructor; [exact Hyd|constructor]|constructor].
    - inversion Hok; subst. constructor; auto. constructor; auto.
  Qed.

  Lemma params_frame_rn ps : params_frame (rn_params b new ps) = rn_sframe (params_frame ps).
  Proof.
    unfold params_frame, rn_params, rn_sframe. rewrite map_rev, !map_map. reflexivity.
  Qed.

  Lemma params_ids ps : map (fun p : oid * name => (fst p, Some (fst p))) (rn_params b new ps)
                        = map (fun p : oid * name => (fst p, Some (fst p))) ps.
  Proof. unfold rn_params. rewrite map_map. reflexivity. Qed.

  Lemma sok_params ps : ok_occs b xb new ps -> sok (params_frame ps).
  Proof. intros H. apply Forall_rev, Forall_map. exact H. Qed.

  Lemma sokS_nil sc : sokS sc -> sokS ([] :: sc).
  Proof. intros. constructor; auto. constructor. Qed.

  Lemma stmt_scope_rn s sc : stmt_scope (rn_stmt funs b new sc s) (rn_scope sc) = rn_scope (stmt_scope s sc).
  Proof. destruct s; simpl; auto. symmetry. apply rn_scope_push. Qed.

  Lemma sokS_stmt s sc : sokS sc -> ok_occs b xb new (occ_stmt s) -> sokS (stmt_scope s sc).
  Proof. destruct s; simpl; auto. intros Hsc Hok. inversion Hok. apply sokS_push; auto. Qed.

  Lemma res_rn :
    (forall e sc, sokS sc -> ok_occs b xb new (occ_expr e) ->
       res_expr funs' (rn_scope sc) (rn_expr funs b new sc e) = res_expr funs sc e) /\
    (forall es sc, sokS sc -> ok_occs b xb new (occ_exprs es) ->
       res_exprs funs' (rn_scope sc) (rn_exprs funs b new sc es) = res_exprs funs sc es) /\
    (forall bl sc, sokS sc -> ok_occs b xb new (occ_block bl) ->
       res_block funs' (rn_scope sc) (rn_block funs b new sc bl) = res_block funs sc bl) /\
    (forall s sc, sokS sc -> ok_occs b xb new (occ_stmt s) ->
       res_stmt funs' (rn_scope sc) (rn_stmt funs b new sc s) = res_stmt funs sc s).
  Proof.
    (* simpl does not unfold res_* and rn_* (mutual fixpoints of a section) and cbn leaves their bodies unfolded in the
       goal: each case gives the congruence and leaves the unfolding to conversion *)
    apply syntax_mutind; intros; simpl in * |-; occs_inv; try reflexivity.
    - (* EVar *) refine (f_equal (fun d => [(u, d)]) (resolve_rn sc x _ _)); auto. apply H0.
    - refine (f_equal2 (@app _) (H sc _ _) (H0 sc _ _)); auto.
    - refine (f_equal2 (@app _) (H sc _ _) (H0 sc _ _)); auto.
    - (* EFun *) refine (f_equal2 (@app _) (params_ids ps) _). rewrite params_frame_rn.
      apply (H (params_frame ps :: sc)); auto. constructor; auto using sok_params.
    - (* EIf *)
      refine (f_equal2 (@app _) (H sc _ _) (f_equal2 (@app _) (H0 ([] :: sc) _ _) (H1 ([] :: sc) _ _))); auto using sokS_nil.
    - exact (H sc H0 H1).
    - exact (H sc H0 H1).
    - (* ECons *) refine (f_equal2 (@app _) (H sc _ _) (H0 sc _ _)); auto.
    - (* BCons *) refine (f_equal2 (@app _) (H sc _ _) _); auto. rewrite stmt_scope_rn. apply H0; auto using sokS_stmt.
    - (* SLet *) refine (f_equal (cons _) (H sc _ _)); auto.
    - (* SAssign *) refine (f_equal2 (fun d l => (u, d) :: l) (resolve_rn sc x _ _) (H sc _ _)); auto. apply H1.
    - exact (H sc H0 H1).
    - (* SWhile *) refine (f_equal2 (@app _) (H sc _ _) (H0 ([] :: sc) _ _)); auto using sokS_nil.
  Qed.
End ResolveSim.

Theorem rename_preserves_resolution_thm : forall (p : program) (b : oid) (xb new : name),
  NoDup (map fst (occ_prog p)) ->
  In (b, xb) (occ_prog p) ->
  ~ In new (map snd (occ_prog p)) ->
  res_prog (rename b new p) = res_prog p.
Proof.
  intros [funs main] b xb new Hnd Hin Hfresh.
  destruct (occ_prog_parts _ _ _ (ok_occs_prog _ b xb new Hnd Hin Hfresh)) as [Hfd Hokm].
  assert (Hfok : sok b xb new (funframe funs)).
  { apply Forall_map, Forall_forall. intros fd Hin'. apply (Hfd fd Hin'). }
  destruct (res_rn funs b xb new Hfok) as [_ [_ [Hb _]]].
  unfold res_prog, rename. cbn [fst snd]. f_equal.
  - rewrite flat_map_map_in. apply flat_map_ext_in'. intros fd Hin'.
    destruct (Hfd fd Hin') as [_ [Hps Hbody]].
    unfold res_fundef. simpl. rewrite params_ids, params_frame_rn.
    change [rn_sframe b new (params_frame (fd_params fd))] with (rn_scope b new [params_frame (fd_params fd)]).
    rewrite Hb; auto. constructor; [|constructor]. eapply sok_params; eauto.
  - change [[]] with (rn_scope b new [[]]) at 1. apply Hb; auto. constructor; constructor.
Qed.

(* A concrete program with shadowing and a capturing closure (names: x=0 y=1 z=2 g=3 f=10):
     fun f(x) { let y = x + 1   if y > 2 { let y = y * 2  println(string_repr(y)) }   let g = fun(z) { z + y }   g(3) }
     println(string_repr(f(5)))                                                                                   *)
Definition ex_prog : program :=
  ([ {| fd_name := 10; fd_id := 1; fd_params := [(2, 0)];
        fd_body :=
          BCons (SLet 3 1 (EBin OAdd (EVar 4 0) (EInt 1)))
         (BCons (SExpr (EIf (EBin OGt (EVar 5 1) (EInt 2))
                   (BCons (SLet 6 1 (EBin OMul (EVar 7 1) (EInt 2)))
                   (BCons (SExpr (EPrint (EVar 8 1))) BNil))
                   BNil))
         (BCons (SLet 9 3 (EFun [(11, 2)] (BCons (SExpr (EBin OAdd (EVar 12 2) (EVar 13 1))) BNil)))
         (BCons (SExpr (ECall (EVar 14 3) (ECons (EInt 3) ENil))) BNil))) |} ],
   BCons (SExpr (EPrint (ECall (EVar 15 10) (ECons (EInt 5) ENil)))) BNil).

Lemma ex_resolution :
  map (resolve ex_prog) [3; 5; 7; 6; 8; 13; 4; 12; 14; 15; 77]
  = [Some 3; Some 3; Some 3; Some 6; Some 6; Some 3; Some 2; Some 11; Some 9; Some 1; None].
Proof. vm_compute. reflexivity. Qed.

(* renaming the outer y (binder 3) rewrites 3, 5, 7 and the captured use 13, and leaves the inner y (6, 8) alone *)
Lemma ex_rename_occurrences :
  occ_prog (rename 3 99 ex_prog)
  = [(1, 10); (2, 0); (3, 99); (4, 0); (5, 99); (6, 1); (7, 99); (8, 1); (9, 3); (11, 2); (12, 2); (13, 99); (14, 3); (15, 10)].
Proof. vm_compute. reflexivity. Qed.

Lemma not_in_by_eqb x l : existsb (Nat.eqb x) l = false -> ~ In x l.
Proof.
  intros E H. rewrite (proj2 (existsb_exists _ _)) in E; [discriminate|].
  exists x. split; [exact H|apply Nat.eqb_refl].
Qed.

Lemma ex_hypotheses :
  NoDup (map fst (occ_prog ex_prog)) /\ In (3, 1) (occ_prog ex_prog) /\
  (forall fd, In fd (fst ex_prog) -> fd_id fd <> 3) /\ ~ In 99 (map snd (occ_prog ex_prog)).
Proof.
  split; [|split; [|split]].
  - change (map fst (occ_prog ex_prog)) with (nodup Nat.eq_dec (map fst (occ_prog ex_prog))). apply NoDup_nodup.
  - do 2 right. left. reflexivity.
  - simpl. intros fd [<-|[]]. simpl. discriminate.
  - apply not_in_by_eqb. reflexivity.
Qed.

Lemma ex_runs :
  run 30 ex_prog = Some ([EvOut (PInt 12); EvOut (PInt 9)], ROk PUnit) /\
  run 30 (rename 3 99 ex_prog) = Some ([EvOut (PInt 12); EvOut (PInt 9)], ROk PUnit).
Proof. split; vm_compute; reflexivity. Qed.

(* e' is e with dbg(..) wrapped around some sub-expressions, never two new wrappers directly around each other *)
Inductive dle_e : expr -> expr -> Prop :=
| DE_wrap e e' : dle_c e e' -> dle_e e (EDbg e')
| DE_core e e' : dle_c e e' -> dle_e e e'
with dle_c : expr -> expr -> Prop :=
| DC_int z : dle_c (EInt z) (EInt z)
| DC_bool b : dle_c (EBool b) (EBool b)
| DC_var u x : dle_c (EVar u x) (EVar u x)
| DC_bin op l l' r r' : dle_e l l' -> dle_e r r' -> dle_c (EBin op l r) (EBin op l' r')
| DC_call f f' a a' : dle_e f f' -> dle_es a a' -> dle_c (ECall f a) (ECall f' a')
| DC_fun ps b b' : dle_b b b' -> dle_c (EFun ps b) (EFun ps b')
| DC_if c c' t t' e e' : dle_e c c' -> dle_b t t' -> dle_b e e' -> dle_c (EIf c t e) (EIf c' t' e')
| DC_dbg e e' : dle_e e e' -> dle_c (EDbg e) (EDbg e')
| DC_print e e' : dle_e e e' -> dle_c (EPrint e) (EPrint e')
with dle_es : exprs -> exprs -> Prop :=
| DES_nil : dle_es ENil ENil
| DES_cons e e' r r' : dle_e e e' -> dle_es r r' -> dle_es (ECons e r) (ECons e' r')
with dle_b : block -> block -> Prop :=
| DB_nil : dle_b BNil BNil
| DB_cons s s' r r' : dle_s s s' -> dle_b r r' -> dle_b (BCons s r) (BCons s' r')
with dle_s : stmt -> stmt -> Prop :=
| DS_let d x e e' : dle_e e e' -> dle_s (SLet d x e) (SLet d x e')
| DS_assign u x e e' : dle_e e e' -> dle_s (SAssign u x e) (SAssign u x e')
| DS_expr e e' : dle_e e e' -> dle_s (SExpr e) (SExpr e')
| DS_while c c' b b' : dle_e c c' -> dle_b b b' -> dle_s (SWhile c b) (SWhile c' b').

Lemma dle_refl :
  (forall e, dle_c e e) /\ (forall es, dle_es es es) /\ (forall b, dle_b b b) /\ (forall s, dle_s s s).
Proof.
  apply syntax_mutind; intros; constructor; auto; apply DE_core; auto.
Qed.

Lemma dle_e_refl e : dle_e e e.
Proof. apply DE_core. apply dle_refl. Qed.

Lemma wrap_dle :
  (forall e path, dle_e e (wrap_expr path e)) /\
  (forall es j path, dle_es es (wrap_exprs j path es)) /\
  (forall b j path, dle_b b (wrap_block j path b)) /\
  (forall s path, dle_s s (wrap_stmt path s)).
Proof.
  destruct dle_refl as [Rc [Res [Rb Rs]]]. pose proof dle_e_refl as Re.
  (* an expression: the empty path wraps it, a longer one goes into one of its parts *)
  apply syntax_mutind; intros; try (destruct path as [|i rest]; simpl; [apply DE_wrap; auto|apply DE_core]); simpl;
    try (constructor; auto; fail).
  - (* EBin *) destruct i; constructor; auto.
  - (* ECall *) destruct i; constructor; auto.
  - (* EIf *) destruct i as [|[|[|i]]]; try (constructor; auto; fail); destruct rest; constructor; auto.
  - (* ECons *) destruct j; constructor; auto.
  - (* BCons *) destruct j; constructor; auto.
  - (* SWhile *) destruct path as [|[|[|i]] rest]; try (constructor; auto; fail). destruct rest; constructor; auto.
Qed.

(* event lists: o' is o with debug lines inserted *)
Inductive ext : list event -> list event -> Prop :=
| ext_nil : ext [] []
| ext_same ev o o' : ext o o' -> ext (ev :: o) (ev :: o')
| ext_dbg s o o' : ext o o' -> ext o (EvDbg s :: o').

Lemma ext_refl o : ext o o.
Proof. induction o; constructor; auto. Qed.

Lemma ext_app a a' c c' : ext a a' -> ext c c' -> ext (a ++ c) (a' ++ c').
Proof. induction 1; simpl; intros; auto; constructor; auto. Qed.

Lemma ext_stdout o o' : ext o o' -> stdout_of o = stdout_of o'.
Proof.
  induction 1; simpl; auto. destruct ev; simpl; congruence.
Qed.

Lemma ext_stderr_length o o' : ext o o' -> length (stderr_of o) <= length (stderr_of o').
Proof.
  induction 1; simpl; auto; try lia. destruct ev; simpl; lia.
Qed.

(* wrap-in-dbg is the simulation of ScopeProps.v with no renaming, no additional bindings, and new dbg(..) *)
Definition idn (_ : option oid) (x : name) : name := x.
Definition any_name (_ : option oid) (_ : name) : Prop := True.

Lemma idn_params ps : ps = rho_params idn ps.
Proof. induction ps as [|[d x] ps IH]; simpl; [|rewrite <- IH]; reflexivity. Qed.

Lemma any_params ps : okps any_name ps.
Proof. apply Forall_forall. intros; exact I. Qed.

Scheme dle_e_mind := Minimality for dle_e Sort Prop
with dle_c_mind := Minimality for dle_c Sort Prop
with dle_es_mind := Minimality for dle_es Sort Prop
with dle_b_mind := Minimality for dle_b Sort Prop
with dle_s_mind := Minimality for dle_s Sort Prop.
Combined Scheme dle_mutind from dle_e_mind, dle_c_mind, dle_es_mind, dle_b_mind, dle_s_mind.

Lemma dle_sim :
  (forall e e', dle_e e e' -> forall sc, sim_e idn any_name True sc e e') /\
  (forall e e', dle_c e e' -> forall sc, sim_c idn any_name True sc e e') /\
  (forall es es', dle_es es es' -> forall sc, sim_es idn any_name True sc es es') /\
  (forall b b', dle_b b b' -> forall sc, sim_b idn any_name True sc b b') /\
  (forall s s', dle_s s s' -> forall sc, sim_s idn any_name True sc s s').
Proof.
  apply dle_mutind; intros; econstructor; eauto using any_params, idn_params; exact I.
Qed.

Definition dfun (fd fd' : fundef) : Prop :=
  fd_name fd' = fd_name fd /\ fd_params fd' = fd_params fd /\ dle_b (fd_body fd) (fd_body fd').

Lemma dfun_find funs funs' g : Forall2 dfun funs funs' ->
  option_rel (sim_fun idn any_name True) (find_fun funs g) (find_fun funs' g).
Proof.
  induction 1 as [|fd fd' l l' [Hn [Hps Hb]] Hl IH]; simpl; auto.
  rewrite Hn. destruct (Nat.eqb g (fd_name fd)); auto. simpl.
  split; [apply any_params|]. split; [rewrite <- idn_params; exact Hps|]. apply dle_sim. exact Hb.
Qed.

Lemma dfun_refl_list funs : Forall2 dfun funs funs.
Proof.
  induction funs; constructor; auto. repeat split; auto. apply dle_refl.
Qed.

Lemma dfun_wrap_nth k j path : forall funs, Forall2 dfun funs (wrap_nth_fun k j path funs).
Proof.
  induction k as [|k IH]; intros [|fd funs]; simpl; try constructor; auto using dfun_refl_list.
  - repeat split; auto. simpl. apply wrap_dle.
  - repeat split; auto. apply dle_refl.
Qed.

(* dbg(..) around any set of sub-expressions, in the function bodies and in the main statements *)
Lemma dbg_transparent_any funs funs' main main' fuel out res :
  Forall2 dfun funs funs' -> dle_b main main' ->
  run fuel (funs, main) = Some (out, res) ->
  exists out', run (2 * fuel) (funs', main') = Some (out', res)
               /\ ext out out' /\ stdout_of out' = stdout_of out
               /\ length (stderr_of out) <= length (stderr_of out').
Proof.
  intros HF HB Hrun.
  assert (Hsim : sims idn any_name (fun _ => False) True funs funs' ext fuel (2 * fuel)).
  { apply sim_slack.
    - (* rho_none *) reflexivity.
    - (* rho_inj: idn renames nothing *) intros od x d y _ _ Hne. exact Hne.
    - (* rho_extra: there are no extra names *) auto.
    - (* funs_ok *) intro g. now apply dfun_find.
    - (* outs_refl *) exact ext_refl.
    - (* outs_app *) exact ext_app.
    - (* outs_dbg *) intros _ s. repeat constructor.
    - (* wraps *) exact I. }
  pose proof (sims_run _ _ main main' Hsim (proj1 (proj2 (proj2 (proj2 dle_sim))) _ _ HB _)) as H.
  rewrite Hrun in H. destruct H as [out' [H1 H2]]. exists out'.
  repeat split; auto using ext_stderr_length. symmetry. apply ext_stdout; auto.
Qed.

(* If the program ends (with a value or a Garden error) having produced the events out, then the program with any
   sub-expression wrapped in dbg(..) ends the same way; its events are out with debug lines inserted, so stdout is the
   same and stderr only gains lines. *)
Theorem dbg_transparent_thm : forall (pos : position) (p : program) (fuel : nat) (out : list event) (res : result),
  run fuel p = Some (out, res) ->
  exists out', run (2 * fuel) (wrap_dbg pos p) = Some (out', res)
               /\ ext out out' /\ stdout_of out' = stdout_of out
               /\ length (stderr_of out) <= length (stderr_of out').
Proof.
  intros [[[k|] j] path] [funs main] fuel out res; simpl.
  - apply dbg_transparent_any; [apply dfun_wrap_nth|apply dle_refl].
  - apply dbg_transparent_any; [apply dfun_refl_list|apply wrap_dle].
Qed.

(* non-vacuity on ex_prog: wrapping the captured `y` inside the closure body *)
Lemma ex_dbg_runs :
  run 30 ex_prog = Some ([EvOut (PInt 12); EvOut (PInt 9)], ROk PUnit) /\
  run 60 (wrap_dbg (Some 0, 2, [0; 1]) ex_prog) = Some ([EvOut (PInt 12); EvDbg (PInt 6); EvOut (PInt 9)], ROk PUnit).
Proof. split; [exact (proj1 ex_runs)|vm_compute; reflexivity]. Qed.

Lemma bind_done_nil {A B} r (a : A) (k : env -> A -> outcome B) : bind (Done [] r a) k = k r a.
Proof. unfold bind. destruct (k r a); reflexivity. Qed.

Lemma bind_done {A B} o1 r (a : A) (k : env -> A -> outcome B) o2 r2 b :
  k r a = Done o2 r2 b -> bind (Done o1 r a) k = Done (o1 ++ o2) r2 b.
Proof. simpl. intros ->. reflexivity. Qed.

Lemma bind_done_inv {A B} (m : outcome A) (k : env -> A -> outcome B) o r b :
  bind m k = Done o r b -> exists o1 r1 a1 o2, m = Done o1 r1 a1 /\ k r1 a1 = Done o2 r b /\ o = o1 ++ o2.
Proof.
  destruct m as [o1 r1 a1|o1 e|]; simpl; try discriminate.
  destruct (k r1 a1) as [o2 r2 b2|o2 e|] eqn:E; try discriminate.
  intros H; inversion H; subst. eexists _, _, _, _. eauto.
Qed.

(* Weakening: additional bindings of a name that occurs nowhere in the code change nothing. The simulation of
   ScopeProps.v with no renaming and no new dbg(..). *)

Section Weaken.
  Variable x : name.

  Definition not_x (_ : option oid) (y : name) : Prop := y <> x.
  Definition nox : list (oid * name) -> Prop := okps not_x.
  Definition wv : value -> value -> Prop := vrel idn not_x (eq x) False.
  Definition wenv : env -> env -> Prop := erel idn not_x (eq x) False.

  Lemma nox_sim :
    (forall e sc, nox (occ_expr e) -> sim_e idn not_x False sc e e) /\
    (forall es sc, nox (occ_exprs es) -> sim_es idn not_x False sc es es) /\
    (forall bl sc, nox (occ_block bl) -> sim_b idn not_x False sc bl bl) /\
    (forall s sc, nox (occ_stmt s) -> sim_s idn not_x False sc s s).
  Proof.
    apply syntax_mutind; intros; simpl in *; occs_inv; try apply SE_core; constructor; auto using idn_params.
  Qed.

  Variable funs : list fundef.
  Hypothesis Hfuns : forall fd, In fd funs -> nox (fd_params fd) /\ nox (occ_block (fd_body fd)).

  Lemma weaken_sims f : sims idn not_x (eq x) False funs funs eq f f.
  Proof.
    apply sim_lockstep.
    - (* rho_none *) reflexivity.
    - (* rho_inj: idn renames nothing *) intros od y d z _ _ Hne. exact Hne.
    - (* rho_extra: the one extra name is x, and not_x forbids it *) intros od y Hy E. exact (Hy (eq_sym E)).
    - (* funs_ok *) intros g. destruct (find_fun funs g) as [fd|] eqn:E; simpl; auto.
      destruct (Hfuns fd (find_fun_in _ _ _ E)) as [Hps Hbody].
      split; [exact Hps|]. split; [apply idn_params|]. apply nox_sim. exact Hbody.
    - (* outs_refl *) reflexivity.
    - (* outs_app *) intros; subst; reflexivity.
    - (* ~ wraps *) auto.
  Qed.

  Lemma wenv_ins r r' d v : wenv r r' -> r <> [] -> wenv r (push_binding x d v r').
  Proof.
    intros Hr Hne. destruct Hr; [congruence|]. simpl. constructor; auto. apply FR_extra; auto.
  Qed.
End Weaken.

(* What a pure expression evaluates to depends on the environment only (peval); evaluation gives just that as soon as
   the fuel suffices (eval_pure). *)
Inductive pres := PV (v : value) | PE (k : err).

Definition of_pres (r : env) (p : pres) : outcome value :=
  match p with PV v => Done [] r v | PE k => Fail [] k end.

Section Pure.
  Variable funs : list fundef.

  Fixpoint peval (r : env) (e : expr) : pres :=
    match e with
    | EInt z => PV (VInt z)
    | EBool b => PV (VBool b)
    | EVar _ y =>
        match lookup r y with
        | Some v => PV v
        | None => match find_fun funs y with Some _ => PV (VFun y) | None => PE ErrUnbound end
        end
    | EBin op l rr =>
        match peval r l with
        | PV a => match peval r rr with
                  | PV b => match eval_binop op a b with Some v => PV v | None => PE ErrType end
                  | PE k => PE k
                  end
        | PE k => PE k
        end
    | _ => PE ErrType
    end.

  Lemma eval_pure e : forall f r, pure e = true ->
    eval_expr funs f r e = OutOfFuel \/ eval_expr funs f r e = of_pres r (peval r e).
  Proof.
    induction e as [z|b|u y|op l IHl rr IHr|fe IHf args|ps body|c IHc t el|e1 IH1|e1 IH1];
      intros f r Hp; simpl in Hp; try discriminate; destruct f as [|f]; auto.
    - right. simpl. destruct (lookup r y); auto. destruct (find_fun funs y); auto.
    - apply andb_prop in Hp. destruct Hp as [Hl Hr]. simpl.
      destruct (IHl f r Hl) as [-> | ->]; auto. destruct (peval r l) as [a|k]; cbn [of_pres]; auto.
      rewrite bind_done_nil.
      destruct (IHr f r Hr) as [-> | ->]; auto. destruct (peval r rr) as [c|k]; cbn [of_pres]; auto.
      rewrite bind_done_nil. destruct (eval_binop op a c); auto.
  Qed.

  Lemma pure_done e f r o r1 a : pure e = true -> eval_expr funs f r e = Done o r1 a -> o = [] /\ r1 = r /\ peval r e = PV a.
  Proof.
    intros Hp H. destruct (eval_pure e f r Hp) as [E|E]; rewrite E in H; [discriminate|].
    destruct (peval r e); simpl in H; inversion H; auto.
  Qed.

  Lemma pure_es_done es : forall f r o r1 vs, pure_es es = true -> eval_args funs f r es = Done o r1 vs -> o = [] /\ r1 = r.
  Proof.
    induction es as [|e rest IH]; intros f r o r1 vs Hp H; destruct f as [|f]; simpl in H; try discriminate.
    - inversion H; auto.
    - simpl in Hp. apply andb_prop in Hp. destruct Hp as [He Hrest].
      apply bind_done_inv in H. destruct H as [o1 [r' [vs1 [o2 [H1 [H2 ->]]]]]].
      destruct (IH _ _ _ _ _ Hrest H1) as [-> ->].
      apply bind_done_inv in H2. destruct H2 as [o3 [r'' [v [o4 [H3 [H4 ->]]]]]].
      destruct (pure_done _ _ _ _ _ _ He H3) as [-> [-> _]]. inversion H4; auto.
  Qed.

  Lemma lookup_push_neq x d v r y : y <> x -> lookup (push_binding x d v r) y = lookup r y.
  Proof. intros Hy. destruct r; simpl; destruct (Nat.eqb_spec y x); try contradiction; auto. Qed.

  Lemma lookup_push_same x d v r : lookup (push_binding x d v r) x = Some v.
  Proof. destruct r; simpl; rewrite Nat.eqb_refl; reflexivity. Qed.

  Lemma peval_push x d v r e : pure e = true -> Forall (fun ox => snd ox <> x) (occ_expr e) ->
    peval (push_binding x d v r) e = peval r e.
  Proof.
    induction e as [z|b|u y|op l IHl rr IHr|fe IHf args|ps body|c IHc t el|e1 IH1|e1 IH1];
      intros Hp Hn; simpl in Hp; try discriminate; simpl; auto.
    - simpl in Hn. inversion Hn; subst. simpl in H1. rewrite lookup_push_neq; auto.
    - apply andb_prop in Hp. destruct Hp as [Hl Hr]. simpl in Hn. apply Forall_app in Hn. destruct Hn as [Hnl Hnr].
      rewrite IHl, IHr; auto.
  Qed.
End Pure.

Lemma get_expr_nil e : get_expr [] e = Some e.
Proof. destruct e; reflexivity. Qed.

Lemma put_expr_nil e1 e : put_expr [] e1 e = e1.
Proof. destruct e; reflexivity. Qed.

(* The selected occurrence e0, at a covered position of something that runs in r and ends without error: e0 was
   evaluated on the way, in r itself, and whatever has the same outcome as e0 there can take its place *)
Section Hole.
  Variable funs : list fundef.
  Variable r : env.
  Variable e0 : expr.
  Hypothesis Hp0 : pure e0 = true.

  (* run e1 : what runs, with e1 in the place of e0; f : its fuel; res : its outcome with e0 *)
  Definition fills {A} (run : expr -> outcome A) (f : nat) (res : outcome A) : Prop :=
    exists g v0, g <= f /\ eval_expr funs g r e0 = Done [] r v0 /\
      forall e1, eval_expr funs g r e1 = Done [] r v0 -> run e1 = res.

  Lemma fills_S {A B} {run : expr -> outcome A} {f res} (run' : expr -> outcome B) res' :
    fills run f res -> (forall e1, run e1 = res -> run' e1 = res') -> fills run' (S f) res'.
  Proof. intros [g [v0 [Hg [Hv Hrep]]]] H. exists g, v0. auto. Qed.

  Lemma fills_bind {A B} {run : expr -> outcome A} {f m} {k : env -> A -> outcome B} {o r2 b} :
    (forall o1 r1 a1, m = Done o1 r1 a1 -> fills run f (Done o1 r1 a1)) ->
    bind m k = Done o r2 b ->
    fills (fun e1 => bind (run e1) k) (S f) (Done o r2 b).
  Proof.
    intros IH H. apply bind_done_inv in H. destruct H as [o1 [r1 [a1 [o2 [E1 [E2 ->]]]]]].
    apply (fills_S _ _ (IH _ _ _ E1)). intros e1 H1. rewrite H1. exact (bind_done _ _ _ _ _ _ _ E2).
  Qed.

  (* e0 is in what runs next (k e1, with e0: k0), and what runs first leaves the environment as it was *)
  Lemma fills_after {A B} {m : outcome A} {k0 : env -> A -> outcome B} {k : expr -> env -> A -> outcome B} {f o r2 b} :
    bind m k0 = Done o r2 b ->
    (forall o1 r1 a1, m = Done o1 r1 a1 -> r1 = r) ->
    (forall a1 o2 r2 b2, k0 r a1 = Done o2 r2 b2 -> fills (fun e1 => k e1 r a1) f (Done o2 r2 b2)) ->
    fills (fun e1 => bind m (k e1)) f (Done o r2 b).
  Proof.
    intros H Hm IH. apply bind_done_inv in H. destruct H as [o1 [r1 [a1 [o2 [E1 [E2 ->]]]]]].
    pose proof (Hm _ _ _ E1) as ->. destruct (IH _ _ _ _ E2) as [g [v0 [Hg [Hv Hrep]]]].
    exists g, v0. split; [exact Hg|]. split; [exact Hv|]. intros e1 H1. rewrite E1. exact (bind_done _ _ _ _ _ _ _ (Hrep e1 H1)).
  Qed.

  Lemma pure_env l f : pure l = true -> forall o r1 a, eval_expr funs f r l = Done o r1 a -> r1 = r.
  Proof. intros Hl o r1 a E. apply (pure_done funs l f r o r1 a Hl E). Qed.

  Definition hole_e (path : list nat) : Prop :=
    forall e, covered_expr path e = true -> get_expr path e = Some e0 -> forall f o r1 a,
      eval_expr funs f r e = Done o r1 a ->
      fills (fun e1 => eval_expr funs f r (put_expr path e1 e)) f (Done o r1 a).

  Lemma hole_args path : hole_e path ->
    forall es j, covered_exprs j path es = true -> get_exprs j path es = Some e0 -> forall f o r1 vs,
      eval_args funs f r es = Done o r1 vs ->
      fills (fun e1 => eval_args funs f r (put_exprs j path e1 es)) f (Done o r1 vs).
  Proof.
    intros IH. induction es as [|e rest IHrest]; intros j Hc Hg [|f] o r1 vs He; try discriminate.
    destruct j; simpl in Hc, Hg, He |- *.
    - apply andb_prop in Hc. destruct Hc as [Hrest Hc].
      exact (fills_after He (fun o1 r1 vs1 E => proj2 (pure_es_done funs rest f r o1 r1 vs1 Hrest E))
               (fun vs1 o2 r2 b2 => fills_bind (IH _ Hc Hg f))).
    - exact (fills_bind (IHrest _ Hc Hg f) He).
  Qed.

  Lemma hole path : hole_e path.
  Proof.
    induction path as [|i p IH]; intros e Hc Hg.
    - rewrite get_expr_nil in Hg. injection Hg as ->. intros f o r1 a H.
      destruct (pure_done _ _ _ _ _ _ _ Hp0 H) as [-> [-> _]]. exists f, a. split; [auto|]. split; [exact H|].
      intros e1 H1. rewrite put_expr_nil. exact H1.
    - pose proof (hole_args p IH) as IHa.
      destruct e; try discriminate Hg; intros [|f] o r1 a He; try discriminate He; simpl in Hc, Hg, He |- *.
      + (* EBin *) destruct i.
        * exact (fills_bind (IH _ Hc Hg f) He).
        * apply andb_prop in Hc. destruct Hc as [Hl Hc].
          exact (fills_after He (pure_env e1 f Hl) (fun a1 o2 r2 b2 => fills_bind (IH _ Hc Hg f))).
      + (* ECall *) destruct i.
        * exact (fills_bind (IH _ Hc Hg f) He).
        * apply andb_prop in Hc. destruct Hc as [Hl Hc].
          exact (fills_after He (pure_env e f Hl) (fun a1 o2 r2 b2 => fills_bind (IHa _ _ Hc Hg f))).
      + (* EIf *) destruct i; [|discriminate Hg]. exact (fills_bind (IH _ Hc Hg f) He).
      + (* EDbg *) exact (fills_bind (IH _ Hc Hg f) He).
      + (* EPrint *) exact (fills_bind (IH _ Hc Hg f) He).
  Qed.

  Lemma hole_s s path : covered_stmt path s = true -> get_stmt path s = Some e0 -> forall f o r1 a,
    exec_stmt funs f r s = Done o r1 a ->
    fills (fun e1 => exec_stmt funs f r (put_stmt path e1 s)) f (Done o r1 a).
  Proof.
    intros Hc Hg [|f] o r1 a H; [discriminate H|]. pose proof (hole path) as He.
    destruct s; simpl in Hc, Hg; try discriminate.
    - exact (fills_bind (He _ Hc Hg f) H).
    - exact (fills_bind (He _ Hc Hg f) H).
    - apply (fills_S _ _ (He _ Hc Hg f _ _ _ H)). auto.
  Qed.
End Hole.

Lemma get_occ (P : oid * name -> Prop) e0 : forall path e,
  get_expr path e = Some e0 -> Forall P (occ_expr e) -> Forall P (occ_expr e0).
Proof.
  induction path as [|i p IH]; intros e Hg Hf.
  - rewrite get_expr_nil in Hg. injection Hg as <-. exact Hf.
  - assert (IHa : forall es j, get_exprs j p es = Some e0 -> Forall P (occ_exprs es) -> Forall P (occ_expr e0)).
    { induction es as [|e' rest IHrest]; intros j Hg' Hf'; [discriminate Hg'|].
      simpl in Hf'. occs_inv. destruct j; eauto. }
    destruct e; try discriminate Hg; simpl in Hg, Hf; occs_inv.
    + destruct i; eauto.
    + destruct i; eauto.
    + destruct i; [eauto|discriminate Hg].
    + eauto.
    + eauto.
Qed.

Lemma get_stmt_nox x s path e0 : nox x (occ_stmt s) -> get_stmt path s = Some e0 -> nox x (occ_expr e0).
Proof. intros Hn Hg. destruct s; try discriminate Hg; simpl in Hn; occs_inv; eapply get_occ; eauto. Qed.

Lemma eval_block_done_head funs f r s rest o r1 a :
  eval_block funs (S f) r (BCons s rest) = Done o r1 a ->
  exists os rs vs, exec_stmt funs f r s = Done os rs vs.
Proof.
  destruct rest as [|s2 rest]; simpl; intros H.
  - eauto.
  - apply bind_done_inv in H. destruct H as [o1 [r' [a1 [o2 [E1 _]]]]]. eauto.
Qed.

Lemma eval_block_head_eq funs f r s s' rest :
  exec_stmt funs f r s' = exec_stmt funs f r s ->
  eval_block funs (S f) r (BCons s' rest) = eval_block funs (S f) r (BCons s rest).
Proof. intros E. destruct rest; simpl; rewrite E; reflexivity. Qed.

Lemma extract_block_nonnil i path x d u bl s :
  block_nth i bl = Some s -> extract_block i path x d u bl <> BNil.
Proof.
  destruct bl as [|s0 rest]; [destruct i; simpl; intros H; discriminate H|]. intros _.
  destruct i; simpl; [destruct (get_stmt path s0)|]; discriminate.
Qed.

Section ExtractMain.
  Variable funs : list fundef.
  Variable x : name.
  Variables d u : oid.
  Variable path : list nat.
  Variable s : stmt.
  Variable e0 : expr.
  Hypothesis Hfuns : forall fd, In fd funs -> nox x (fd_params fd) /\ nox x (occ_block (fd_body fd)).
  Hypothesis Hcov : covered_stmt path s = true.
  Hypothesis Hget : get_stmt path s = Some e0.
  Hypothesis Hpure : pure e0 = true.

  Lemma extract_here rest f r r' o r1 a :
    wenv x r r' -> r <> [] -> nox x (occ_block (BCons s rest)) ->
    eval_block funs (S f) r (BCons s rest) = Done o r1 a ->
    exists r1' a',
      eval_block funs (S (S f)) r' (BCons (SLet d x e0) (BCons (put_stmt path (EVar u x) s) rest)) = Done o r1' a'
      /\ wv x a a'.
  Proof.
    intros Hr Hne Hnb Hrun.
    assert (Hn0 : nox x (occ_expr e0)).
    { simpl in Hnb. apply Forall_app in Hnb. exact (get_stmt_nox x s path e0 (proj1 Hnb) Hget). }
    (* e0 is evaluated in r, so it has a value in r' too, and the new `let` binds x to that *)
    destruct (eval_block_done_head _ _ _ _ _ _ _ _ Hrun) as [os [rs [vs Hs]]].
    destruct (hole_s funs r e0 Hpure s path Hcov Hget f os rs vs Hs) as [g [v [Hg [Hv _]]]].
    destruct (weaken_sims x funs Hfuns g) as [We _].
    pose proof (We _ r r' e0 e0 Hr eq_refl (proj1 (nox_sim x) e0 _ Hn0)) as W0. rewrite Hv in W0.
    destruct (orel_done_inv W0) as [o' [r'' [v' [Ev' [<- _]]]]].
    destruct (pure_done funs e0 g r' [] r'' v' Hpure Ev') as [_ [Er Hpe]]. subst r''.
    assert (Ef : eval_expr funs f r' e0 = Done [] r' v').
    { rewrite <- Ev'. apply (eval_mono funs g f Hg). rewrite Ev'. discriminate. }
    set (r2 := push_binding x d v' r').
    assert (Hlet : exec_stmt funs (S f) r' (SLet d x e0) = Done [] r2 VUnit).
    { simpl. rewrite Ef. reflexivity. }
    rewrite eval_block_cons by discriminate. rewrite Hlet, bind_done_nil.
    (* weakening: the original block does the same in the environment with the additional binding *)
    destruct (weaken_sims x funs Hfuns (S f)) as [_ [_ [Wb _]]].
    pose proof (Wb _ r r2 _ _ (wenv_ins x r r' d v' Hr Hne) eq_refl (proj1 (proj2 (proj2 (nox_sim x))) _ _ Hnb)) as W1.
    rewrite Hrun in W1. destruct (orel_done_inv W1) as [o2 [r2' [a2 [Eb [<- [_ [_ Ha]]]]]]].
    (* and there e0 has the value of x, so the statement with the variable does the same as well *)
    destruct (eval_block_done_head _ _ _ _ _ _ _ _ Eb) as [os2 [rs2 [vs2 Hs2]]].
    destruct (hole_s funs r2 e0 Hpure s path Hcov Hget f os2 rs2 vs2 Hs2) as [g2 [v2 [_ [Hv2 Hrep]]]].
    assert (Heq : exec_stmt funs f r2 (put_stmt path (EVar u x) s) = exec_stmt funs f r2 s).
    { rewrite Hs2. apply Hrep.
      destruct (pure_done funs e0 g2 r2 _ _ _ Hpure Hv2) as [_ [_ Hp2]].
      unfold r2 in Hp2. rewrite peval_push, Hpe in Hp2 by auto. inversion Hp2; subst v2.
      destruct g2 as [|g2]; [discriminate Hv2|]. simpl. unfold r2. rewrite lookup_push_same. reflexivity. }
    rewrite (eval_block_head_eq _ _ _ _ _ _ Heq). rewrite Eb. eauto.
  Qed.

  Lemma extract_prefix : forall i bl f r r' o r1 a,
    wenv x r r' -> r <> [] -> nox x (occ_block bl) -> block_nth i bl = Some s ->
    eval_block funs f r bl = Done o r1 a ->
    exists r1' a', eval_block funs (S f) r' (extract_block i path x d u bl) = Done o r1' a' /\ wv x a a'.
  Proof.
    induction i as [|i IH]; intros bl f r r' o r1 a Hr Hne Hn Hnth Hrun;
      destruct bl as [|s0 rest]; simpl in Hnth; try discriminate;
      destruct f as [|f1]; try (simpl in Hrun; discriminate).
    - inversion Hnth; subst s0. simpl extract_block. rewrite Hget. apply (extract_here rest f1 r r' o r1 a); auto.
    - simpl in Hn. apply Forall_app in Hn. destruct Hn as [Hn0 Hnrest].
      assert (Hnil : rest <> BNil) by (destruct rest; [destruct i; simpl in Hnth; discriminate Hnth|discriminate]).
      rewrite eval_block_cons in Hrun by auto.
      apply bind_done_inv in Hrun. destruct Hrun as [o1 [rm [am [o2 [E1 [E2 ->]]]]]].
      destruct (weaken_sims x funs Hfuns f1) as [_ [_ [_ Ws]]].
      pose proof (Ws _ r r' s0 s0 Hr eq_refl (proj2 (proj2 (proj2 (nox_sim x))) _ _ Hn0)) as W0. rewrite E1 in W0.
      destruct (orel_done_inv W0) as [o1' [rm' [am' [Es' [<- [Hrm [Hsc _]]]]]]].
      assert (Hne' : rm <> []).
      { destruct r as [|fr r0]; [congruence|]. simpl in Hsc.
        destruct (stmt_scope_cons s0 (scope_of_frame fr) (scope_of r0)) as [fr1 E]. rewrite E in Hsc.
        intros ->. discriminate Hsc. }
      destruct (IH rest f1 rm rm' o2 r1 a Hrm Hne' Hnrest Hnth E2) as [r1' [a' [Hright Ha]]].
      simpl extract_block. rewrite eval_block_cons by (eapply extract_block_nonnil; eauto).
      destruct (eval_mono_step funs f1) as [_ [_ [_ Ms]]]. rewrite Ms by (rewrite Es'; discriminate).
      rewrite Es'. erewrite bind_done by exact Hright. eauto.
  Qed.
End ExtractMain.

Theorem extract_var_preserves_thm : forall (p : program) (i : nat) (path : list nat) (x : name) (d u : oid)
    (s : stmt) (e0 : expr) (fuel : nat) (out : list event) (v : pval),
  block_nth i (snd p) = Some s ->
  get_stmt path s = Some e0 ->
  covered_stmt path s = true ->
  pure e0 = true ->
  ~ In x (map snd (occ_prog p)) ->
  run fuel p = Some (out, ROk v) ->
  run (S fuel) (extract_var i path x d u p) = Some (out, ROk v).
Proof.
  intros [funs main] i path x d u s e0 fuel out v Hnth Hget Hcov Hpure Hfresh Hrun. simpl in Hnth.
  assert (Hall : nox x (occ_prog (funs, main))).
  { apply Forall_forall. intros [o y] Hin E. simpl in E. subst y. apply Hfresh. apply (in_map snd) in Hin. exact Hin. }
  destruct (occ_prog_parts _ _ _ Hall) as [Hfuns Hm].
  unfold run in *. cbn [fst snd] in *. unfold extract_var. cbn [fst snd].
  destruct (eval_block funs fuel [[]] main) as [o r a|o k|] eqn:E; try discriminate.
  inversion Hrun; subst.
  assert (Hr : wenv x [[]] [[]]) by (repeat constructor).
  destruct (extract_prefix funs x d u path s e0 (fun fd Hfd => proj2 (Hfuns fd Hfd)) Hcov Hget Hpure
              i main fuel [[]] [[]] out r a Hr) as [r1' [a' [Hright Ha]]]; auto; [discriminate|].
  rewrite Hright. rewrite (vrel_show Ha). reflexivity.
Qed.

(* non-vacuity (names a=0, fresh x=7):   let a = 3   println(string_repr(a + (a * 2)))   -- extract `a * 2` *)
Definition ex_extract : program :=
  ([], BCons (SLet 1 0 (EInt 3))
      (BCons (SExpr (EPrint (EBin OAdd (EVar 2 0) (EBin OMul (EVar 3 0) (EInt 2))))) BNil)).

Lemma ex_extract_ok :
  block_nth 1 (snd ex_extract) = Some (SExpr (EPrint (EBin OAdd (EVar 2 0) (EBin OMul (EVar 3 0) (EInt 2))))) /\
  get_stmt [0; 1] (SExpr (EPrint (EBin OAdd (EVar 2 0) (EBin OMul (EVar 3 0) (EInt 2))))) = Some (EBin OMul (EVar 3 0) (EInt 2)) /\
  covered_stmt [0; 1] (SExpr (EPrint (EBin OAdd (EVar 2 0) (EBin OMul (EVar 3 0) (EInt 2))))) = true /\
  pure (EBin OMul (EVar 3 0) (EInt 2)) = true /\
  ~ In 7 (map snd (occ_prog ex_extract)) /\
  extract_var 1 [0; 1] 7 10 11 ex_extract =
    ([], BCons (SLet 1 0 (EInt 3))
        (BCons (SLet 10 7 (EBin OMul (EVar 3 0) (EInt 2)))
        (BCons (SExpr (EPrint (EBin OAdd (EVar 2 0) (EVar 11 7)))) BNil))) /\
  run 10 ex_extract = Some ([EvOut (PInt 9)], ROk PUnit) /\
  run 11 (extract_var 1 [0; 1] 7 10 11 ex_extract) = Some ([EvOut (PInt 9)], ROk PUnit).
Proof.
  repeat split; try (vm_compute; reflexivity).
  apply not_in_by_eqb. reflexivity.
Qed.
