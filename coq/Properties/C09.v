(* C09 -- The JSON session answers every request and never dies.
   Statements; the model is Session.v (over Machine.v), the proofs are in
   SessionProps.v and Discipline.v, except for short combinations of their
   lemmas and the closed examples, proved in place.

   WHAT IS PROVED HERE AND WHAT IS NOT.
   * handle_total, responses_in_order: all states, all requests (they hold by
     construction of the single worker: one `handle` call, one response).
   * handle_session_layer_no_panic: in ANY state with a non-empty stack, with
     the repaired `:skip`, the session commands themselves never panic: if
     `handle` answers SessionPanic then an `eval` call crashed (an `expect` of
     the evaluator), nothing else.
   * handle_no_panic_partial: for ALL states reachable from a fresh session
     through ANY sequence of Run / :resume / :abort / :skip / :replace /
     :forget_local / inspection requests whose expressions are in the
     structured fragment with parser-consistent value_is_used flags
     (`wf_request`, through Session.wf: no for / break / continue / closure
     literal; return and match are in), no response is SessionPanic, given
     `evaluator_keeps_discipline p`.
   * machine_no_crash_partial / run_no_crash_partial / evaluator_discipline
     (Discipline.v: machine_no_crash_lemma, run_no_crash_lemma,
     evaluator_keeps_discipline_lemma): that hypothesis HOLDS for every program whose function
     bodies are in the same fragment (`wf_prog`), whose namespace values
     contain no closure (`globals_ok`) and no Int (`globals_noint`): one
     iteration of the eval loop from a state satisfying the discipline
     `stack_run` never crashes and keeps it (a case analysis over all of
     Machine.exec: int/string literals, variables, binary operators, let,
     assignment, += / -=, if, while, return, list and tuple literals, calls of
     named functions / built-ins / enum constructors, parentheses, match).
   * handle_no_panic: hence UNCONDITIONALLY, for such programs and requests, no
     state reachable from a fresh session answers SessionPanic.
   Not covered by these theorems (search only): for, break, continue, closure
   literals, and everything of garden outside Machine.v. *)
From Coq Require Import ZArith NArith Bool List.
From Garden Require Import Base.Int64 Arith gen.Tables Machine MachineInv MachineSession Session SessionProps Discipline.
Import ListNotations.
Open Scope nat_scope.

Theorem handle_total : forall fx fuel p s r, exists s' a, handle fx fuel p s r = (s', a).
Proof. exact handle_total. Qed.
Print Assumptions handle_total.

(* While nothing has panicked: as many responses as requests, and the i-th
   response is the answer to the i-th request in the state the earlier
   requests left. *)
Theorem responses_in_order : forall fx fuel p rs1 s r rs2 s1 l1,
  run_history fx fuel p s rs1 = (s1, l1) -> ~ In SessionPanic l1 ->
  length l1 = length rs1 /\
  exists s2 l2, run_history fx fuel p s (rs1 ++ r :: rs2) = (s2, l1 ++ snd (handle fx fuel p s1 r) :: l2).
Proof. exact responses_in_order_lemma. Qed.
Print Assumptions responses_in_order.

Theorem handle_session_layer_no_panic : forall fuel p s r s',
  stack s <> [] -> handle all_fixes fuel p s r = (s', SessionPanic) ->
  exists stop s1, stack s1 <> [] /\ eval true p fuel stop s1 = RCrashed.
Proof. exact handle_session_layer_no_panic_lemma. Qed.
Print Assumptions handle_session_layer_no_panic.

(* Every session command keeps the discipline and does not panic. *)
Theorem handle_keeps_discipline : forall p, evaluator_keeps_discipline p -> forall fuel s r,
  stack_ok (stack s) -> wf_request r = true ->
  stack_ok (stack (fst (handle all_fixes fuel p s r))) /\ snd (handle all_fixes fuel p s r) <> SessionPanic.
Proof. exact handle_keeps_discipline. Qed.
Print Assumptions handle_keeps_discipline.

Theorem handle_no_panic_partial : forall fuel p, evaluator_keeps_discipline p -> forall s,
  reachable fuel p s -> forall r, wf_request r = true -> snd (handle all_fixes fuel p s r) <> SessionPanic.
Proof. exact handle_no_panic_partial_lemma. Qed.
Print Assumptions handle_no_panic_partial.

(* The evaluator keeps the discipline: the hypothesis above holds for every
   well-formed program. *)
Theorem evaluator_discipline : forall p,
  wf_prog p = true -> globals_ok p = true -> globals_noint p = true -> evaluator_keeps_discipline p.
Proof. intros p W G N. apply evaluator_keeps_discipline_lemma. repeat split; assumption. Qed.
Print Assumptions evaluator_discipline.

(* Machine level (Properties/C02.v states the same two facts): from a state
   that satisfies the value-stack / binding-block discipline one iteration of
   the eval loop never hits an `expect` / `unreachable!` ... *)
Theorem machine_no_crash_partial : forall p,
  wf_prog p = true -> globals_ok p = true -> globals_noint p = true ->
  forall s, stack_run (stack s) -> step p s <> Crashed.
Proof. intros p W G N. apply machine_no_crash_lemma. repeat split; assumption. Qed.
Print Assumptions machine_no_crash_partial.

(* ... so a whole program of well-formed toplevel expressions never crashes,
   however long it runs. *)
Theorem run_no_crash_partial : forall p exprs,
  wf_prog p = true -> globals_ok p = true -> globals_noint p = true -> wf_all_used exprs = true ->
  forall n, run p n (init_state exprs None None) <> RCrashed.
Proof. intros p exprs W G N WE. apply run_no_crash_lemma; [repeat split; assumption|exact WE]. Qed.
Print Assumptions run_no_crash_partial.

(* UNCONDITIONAL: no state reachable from a fresh session through well-formed
   requests answers SessionPanic. *)
Theorem handle_no_panic : forall fuel p,
  wf_prog p = true -> globals_ok p = true -> globals_noint p = true ->
  forall s, reachable fuel p s -> forall r, wf_request r = true ->
  snd (handle all_fixes fuel p s r) <> SessionPanic.
Proof.
  intros fuel p W G N. apply handle_no_panic_partial_lemma.
  apply evaluator_keeps_discipline_lemma. repeat split; assumption.
Qed.
Print Assumptions handle_no_panic.

(* ---- examples ------------------------------------------------------------- *)
Definition mt (u : bool) (a b : N) : meta := {| used := u; pstart := a; pend := b |}.
Definition ex_prog : prog :=
  {| globals := [(20%N, VFun 20%N []); (21%N, VBuiltin BiPrintln)];
     funs := [(20%N, {| fparams := [30%N];
                        fbody := [ ELet (mt false 11 24) 31%N (EVar (mt true 21 24) 99%N);      (* let hl = nosuch *)
                                   EVar (mt true 25 26) 30%N ] |})] |}.
Definition one_plus_one : request := RRun [EBin (mt true 0 5) (BInt OAdd) (EInt (mt true 0 1) 1) (EInt (mt true 4 5) 1)].
Definition let_x_nosuch (x : ident) : request := RRun [ELet (mt true 0 14) x (EVar (mt true 8 14) 98%N)].

(* `:skip` with nothing pending: the code as it was panics and the canary is
   never answered; the repaired code answers with a message and goes on. *)
Example skip_nothing_pending_before_fix :
  snd (run_history no_fixes 100 ex_prog fresh [RSkip; one_plus_one]) = [SessionPanic].
Proof. vm_compute. reflexivity. Qed.
Print Assumptions skip_nothing_pending_before_fix.

Example skip_nothing_pending_after_fix :
  snd (run_history all_fixes 100 ex_prog fresh [RSkip; one_plus_one]) = [RespCommand; RespValue (VInt 2)].
Proof. vm_compute. reflexivity. Qed.
Print Assumptions skip_nothing_pending_after_fix.

(* `let x = nosuch`, :skip, `let z = nosuch`, :skip: the second let pops an
   empty value stack before the repair; after it both variables are Unit. *)
Example skip_used_value_before_fix :
  snd (run_history {| fx_skip := false; fx_call := true |} 100 ex_prog fresh
         [let_x_nosuch 40%N; RSkip; let_x_nosuch 41%N; RSkip; one_plus_one]) =
  [RespError {| ekind_of := KException; epos_of := (8%N, 14%N) |}; RespValue vunit;
   RespError {| ekind_of := KException; epos_of := (8%N, 14%N) |}; SessionPanic].
Proof. vm_compute. reflexivity. Qed.
Print Assumptions skip_used_value_before_fix.

Example skip_used_value_after_fix :
  snd (run_history all_fixes 100 ex_prog fresh
         [let_x_nosuch 40%N; RSkip; let_x_nosuch 41%N; RSkip; RRun [EVar (mt true 0 1) 41%N]; one_plus_one]) =
  [RespError {| ekind_of := KException; epos_of := (8%N, 14%N) |}; RespValue vunit;
   RespError {| ekind_of := KException; epos_of := (8%N, 14%N) |}; RespValue vunit; RespValue vunit; RespValue (VInt 2)].
Proof. vm_compute. reflexivity. Qed.
Print Assumptions skip_used_value_after_fix.

(* a failure inside a call; :replace drains the callee's value stack; a run
   whose last expression is a call overwrites the pending expressions;
   :resume then returns from a frame without a value -- a panic before fix 7 *)
Definition call_f : request := RRun [ECall (mt true 0 4) (EVar (mt true 0 1) 20%N) [EInt (mt true 2 3) 1]].
Definition ok_f : prog :=
  {| globals := [(20%N, VFun 20%N []); (22%N, VFun 22%N [])];
     funs := [(20%N, {| fparams := [30%N]; fbody := [ EVar (mt true 25 26) 99%N ] |});
              (22%N, {| fparams := [30%N]; fbody := [ EVar (mt true 65 66) 30%N ] |})] |}.
Definition call_g : request := RRun [ECall (mt true 0 4) (EVar (mt true 0 1) 22%N) [EInt (mt true 2 3) 1]].
Definition repl_nosuch : request := RReplace (EVar (mt true 0 6) 98%N).
Example stop_at_call_before_fix :
  last (snd (run_history {| fx_skip := true; fx_call := false |} 200 ok_f fresh
         [call_f; repl_nosuch; repl_nosuch; call_g; RResume; one_plus_one])) RespCommand = SessionPanic.
Proof. vm_compute. reflexivity. Qed.
Print Assumptions stop_at_call_before_fix.

Example stop_at_call_after_fix :
  ~ In SessionPanic (snd (run_history all_fixes 200 ok_f fresh
         [call_f; repl_nosuch; repl_nosuch; call_g; RResume; one_plus_one])) /\
  last (snd (run_history all_fixes 200 ok_f fresh
         [call_f; repl_nosuch; repl_nosuch; call_g; RResume; one_plus_one])) RespCommand = RespValue (VInt 2).
Proof. vm_compute. split; [intuition discriminate|reflexivity]. Qed.
Print Assumptions stop_at_call_after_fix.

(* the requests of these examples are well formed (`wf_request`), and so is the
   program ok_f (ex_prog is not checked) *)
Example example_requests_wf :
  forallb wf_request [let_x_nosuch 40%N; RSkip; one_plus_one; call_f; repl_nosuch; call_g; RResume; RAbort; RForgetLocal 30%N] = true
  /\ wf_prog ok_f = true /\ globals_ok ok_f = true.
Proof. vm_compute. auto. Qed.
Print Assumptions example_requests_wf.


(* the hypotheses of handle_no_panic / run_no_crash_partial are satisfiable (ok_f,
   and the requests above), and they cannot be dropped: a list literal whose
   items are marked unused pops values that were never pushed *)
Example wf_hypotheses_satisfiable :
  wf_prog ok_f = true /\ globals_ok ok_f = true /\ globals_noint ok_f = true /\
  wf_all_used [ECall (mt true 0 4) (EVar (mt true 0 1) 22%N) [EInt (mt true 2 3) 1]] = true /\
  run ok_f 50 (init_state [ECall (mt true 0 4) (EVar (mt true 0 1) 22%N) [EInt (mt true 2 3) 1]] None None)
  = RDone (VInt 1) (mkState [mkFrame [] [vunit] [[]] [] true] 6 [] false None None).
Proof. vm_compute. repeat split; reflexivity. Qed.
Print Assumptions wf_hypotheses_satisfiable.

Example wf_hypothesis_needed :
  wf_all_used [EList (mt true 0 6) [EInt (mt false 1 2) 1; EInt (mt false 4 5) 2]] = false /\
  run ok_f 50 (init_state [EList (mt true 0 6) [EInt (mt false 1 2) 1; EInt (mt false 4 5) 2]] None None) = RCrashed.
Proof. vm_compute. split; reflexivity. Qed.
Print Assumptions wf_hypothesis_needed.
