(* C13 -- `==` is structural equality on values.
   Statements: the model is Value.v (mirror of `impl PartialEq for Value_`, of the `Rc` pointer
   shortcut and of the literal evaluators in /repo/src), the proofs are in ValueEqProps.v (closed examples
   are evaluated here, `struct_eq_equivalence` pairs three lemmas, `neq_is_negb` holds by definition).

   veq a b          `a == b` for two values built independently (no shared `Rc`)
   veq_sh same a b  `a == b` when `same x y` tells which sub-values are the same `Rc` object
   vne / vne_sh     `a != b`
   literal a        a is a value of the literal-syntax fragment in which every dict is a map (each key once)
   a ≈ b            structural equality: syntactic equality except that runtime-type annotations are not
                    looked at and dicts are compared as maps (order of the pairs irrelevant); floats are
                    their bit patterns (= their printed forms, for finite floats) *)
From Coq Require Import ZArith NArith Bool List.
From Garden Require Import Value ValueEqProps.
Import ListNotations.

Theorem veq_structural : forall a b, literal a -> literal b -> (veq a b = true <-> a ≈ b).
Proof. exact veq_structural_lemma. Qed.
Print Assumptions veq_structural.

Example veq_structural_example :
  literal ex_m1 /\ literal ex_m2 /\ ex_m1 <> ex_m2 /\ veq ex_m1 ex_m2 = true /\ ex_m1 ≈ ex_m2.
Proof.
  assert (L1 : literal ex_m1) by (vm_compute; reflexivity).
  assert (L2 : literal ex_m2) by (vm_compute; reflexivity).
  assert (E : veq ex_m1 ex_m2 = true) by (vm_compute; reflexivity).
  refine (conj L1 (conj L2 (conj _ (conj E _)))); [vm_compute; discriminate | now apply veq_structural].
Qed.
Print Assumptions veq_structural_example.

(* ≈ is an equivalence relation (on all values of the model, literal or not). *)
Theorem struct_eq_equivalence :
  (forall a, a ≈ a) /\ (forall a b, a ≈ b -> b ≈ a) /\ (forall a b c, a ≈ b -> b ≈ c -> a ≈ c).
Proof. exact (conj struct_eq_refl (conj struct_eq_sym struct_eq_trans)). Qed.
Print Assumptions struct_eq_equivalence.

Theorem veq_refl : forall a, literal a -> veq a a = true.
Proof. exact veq_refl_lemma. Qed.
Print Assumptions veq_refl.

Theorem veq_sym : forall a b, literal a -> literal b -> veq a b = veq b a.
Proof. exact veq_sym_lemma. Qed.
Print Assumptions veq_sym.

Theorem veq_trans : forall a b c, literal a -> literal b -> literal c ->
  veq a b = true -> veq b c = true -> veq a c = true.
Proof. exact veq_trans_lemma. Qed.
Print Assumptions veq_trans.

Example veq_trans_example :
  literal ex_m1 /\ literal ex_m2 /\ literal ex_m3 /\ veq ex_m1 ex_m2 = true /\ veq ex_m2 ex_m3 = true /\ veq ex_m1 ex_m3 = true.
Proof. vm_compute. repeat split; reflexivity. Qed.
Print Assumptions veq_trans_example.

(* `!=` is the negation of `==`, shared or not. *)
Theorem neq_is_negb : forall same a b, vne_sh same a b = negb (veq_sh same a b).
Proof. reflexivity. Qed.
Print Assumptions neq_is_negb.

(* The `Rc::ptr_eq` shortcut (at any depth) never changes the answer: values built through shared
   variables compare like values built separately. *)
Theorem veq_independent_of_sharing : forall same a b, same_ok same -> literal a -> literal b ->
  veq_sh same a b = veq a b.
Proof. exact veq_independent_of_sharing_lemma. Qed.
Print Assumptions veq_independent_of_sharing.

Example veq_independent_of_sharing_example : forall same, same_ok same ->
  veq_sh same ex_m1 ex_m2 = true /\ veq_sh same f_zero f_neg_zero = false.
Proof.
  intros same OK. split; (rewrite veq_independent_of_sharing; [| assumption | vm_compute; reflexivity ..]); vm_compute; reflexivity.
Qed.
Print Assumptions veq_independent_of_sharing_example.

(* What ≈ identifies beyond syntactic equality: annotations and dict order. *)
Theorem struct_eq_ignores_list_type : forall t1 t2 xs, VList t1 xs ≈ VList t2 xs.
Proof. exact struct_eq_ignores_list_type_lemma. Qed.
Print Assumptions struct_eq_ignores_list_type.

Theorem struct_eq_ignores_enum_type : forall n t1 t2 i p, VEnum n t1 i p ≈ VEnum n t2 i p.
Proof. exact struct_eq_ignores_enum_type_lemma. Qed.
Print Assumptions struct_eq_ignores_enum_type.

Theorem struct_eq_dict_order : forall t1 t2 k1 v1 k2 v2 m, k1 <> k2 ->
  VDict t1 ((k1, v1) :: (k2, v2) :: m) ≈ VDict t2 ((k2, v2) :: (k1, v1) :: m).
Proof. exact dict_swap. Qed.
Print Assumptions struct_eq_dict_order.

(* Floats: 0.1 +. 0.2 == 0.1 +. 0.2, != 0.3; 0.0 != -0.0 (they print differently); [1.5] == [1.5]; 1 != 1.0. *)
Example veq_floats_example :
  veq f_01_plus_02 f_01_plus_02 = true /\ veq f_01_plus_02 f_03 = false /\
  veq f_zero f_neg_zero = false /\ veq f_neg_zero f_neg_zero = true /\
  veq (mk_list [f_1_5]) (mk_list [f_1_5]) = true /\ veq (VInt 1) (VFloat 4607182418800017408) = false.
Proof. vm_compute. repeat split; reflexivity. Qed.
Print Assumptions veq_floats_example.

(* The code as it was (values.rs before fix-1) refutes the property: *)
Theorem orig_float_never_equal : forall bits, orig_veq_sh false no_sharing (VFloat bits) (VFloat bits) = false.
Proof. exact ValueEqProps.orig_float_never_equal. Qed.
Print Assumptions orig_float_never_equal.

Theorem orig_float_equal_when_shared : forall bits, orig_veq_sh false (fun _ _ => true) (VFloat bits) (VFloat bits) = true.
Proof. exact ValueEqProps.orig_float_equal_when_shared. Qed.
Print Assumptions orig_float_equal_when_shared.

Theorem orig_dict_never_equal : forall t m, orig_veq_sh false no_sharing (VDict t m) (VDict t m) = false.
Proof. exact ValueEqProps.orig_dict_never_equal. Qed.
Print Assumptions orig_dict_never_equal.

(* After fix-1 only: `Some(Dict["a" => [], "b" => [1]]) == Some(Dict["b" => [1], "a" => []])` is False because
   the runtime types Option<Dict<List<Int>>> and Option<Dict<List<NoValue>>> differ; after fix-2 it is True. *)
Example fix2_needed_example :
  literal ex_some1 /\ literal ex_some2 /\ ex_some1 ≈ ex_some2 /\
  orig_veq_sh true no_sharing ex_some1 ex_some2 = false /\ veq ex_some1 ex_some2 = true.
Proof.
  assert (L1 : literal ex_some1) by (vm_compute; reflexivity).
  assert (L2 : literal ex_some2) by (vm_compute; reflexivity).
  assert (E : veq ex_some1 ex_some2 = true) by (vm_compute; reflexivity).
  refine (conj L1 (conj L2 (conj _ (conj _ E)))); [now apply veq_structural | vm_compute; reflexivity].
Qed.
Print Assumptions fix2_needed_example.

(* `Pt{ x: 1, y: 2 }` and `Pt{ y: 2, x: 1 }` are the same value after fix-3, and were unequal before. *)
Example struct_literal_order_example :
  ex_pt1 = ex_pt2 /\ veq ex_pt1 ex_pt2 = true /\ veq ex_pt1_orig ex_pt2_orig = false.
Proof. vm_compute. repeat split; reflexivity. Qed.
Print Assumptions struct_literal_order_example.
