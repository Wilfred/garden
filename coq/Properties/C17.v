(* C17 -- Formatting never changes a program's meaning: THE TOKEN / GAP LAYER.
   Only statements here; the model is EditAlgebra.v (edits, position-free lexer
   steps) over Lex.v (the lexer), proofs are in EditAlgebraProps.v.

   What these theorems say: ANY formatter whose edits satisfy the decidable
   conditions `gap_edit_ok` / `edits_ok` keeps the sequence of token texts and
   comment texts of `Lex.lex` (`lex_items`: comments listed in front of the
   token that carries them, trailing comments last).  That src/format.rs's edits
   satisfy the conditions is NOT proved: tools/props/C17.py checks it PER RUN on
   the edits the real formatter produced (translation validation, op gapcheck of
   the extracted checker).  "Same token and comment texts (and the same
   same-line / adjacency facts the parser reads) => same syntax tree" is not
   proved either; it is validated end to end by comparing ASTs.

   gap_ok pre w rep post (EditAlgebra.v), for the source pre ++ w ++ post edited
   to pre ++ rep ++ post:  w and rep are whitespace only; the file does not start
   with `#`; the lexer, run on the source, has a step boundary at the end of pre
   reached through steps that are not unclosed strings, unterminated comments or
   strings closed only by the end of the text; and EITHER `tails_ok` holds of
   w ++ post and rep ++ post: each is empty or starts with a char that no token
   can absorb (`stop`: not [A-Za-z0-9_], not one of . = & | * > : /), or both
   start with `/`; OR the last step before the edit (in practice a whitespace
   char or a `//` line) is taken identically before and after the edit and
   `tails_ok` holds of the two texts with that step put back in front (a `//`
   line passes by the `/`-`/` case).  The condition is sufficient; it is not
   claimed to be necessary. *)
From Coq Require Import NArith Bool List.
From Garden Require Import Base.Utf Lex EditAlgebra EditAlgebraProps.
Import ListNotations.
Open Scope N_scope.

(* A byte splice that satisfies the gap conditions keeps the token and comment
   texts, for ALL sources. *)
Theorem splice_in_gap_preserves_tokens : forall src e, gap_edit_ok src e = true ->
  exists src', splice src e = Some src' /\ lex_items src' = lex_items src.
Proof. exact splice_in_gap_edit. Qed.
Print Assumptions splice_in_gap_preserves_tokens.

(* the same in decomposed form *)
Theorem splice_in_gap_decomposed : forall pre w rep post, gap_ok pre w rep post = true ->
  lex_items (pre ++ rep ++ post) = lex_items (pre ++ w ++ post).
Proof. exact splice_in_gap_lemma. Qed.
Print Assumptions splice_in_gap_decomposed.

(* hypotheses satisfiable: `let x  = 1` -> `let x = 1`; `f(a ,b)` -> `f(a,b)`;
   `f(a,b)` -> `f(a, b)`; un-indenting the line after a `// c` line *)
Theorem splice_in_gap_examples :
  gap_ok [108; 101; 116; 32; 120] [32; 32] [32] [61; 32; 49] = true /\
  (gap_ok [102; 40; 97] [32] [] [44; 98; 41] = true /\
   gap_ok [102; 40; 97; 44] [] [32] [98; 41] = true) /\
  gap_ok [47; 47; 32; 99; 10] [32; 32] [] [120] = true.
Proof. exact (conj gap_ok_example (conj gap_ok_comma_examples gap_ok_after_comment_example)). Qed.
Print Assumptions splice_in_gap_examples.

(* the glue side condition cannot be dropped: whitespace-only edits inside a gap
   that change the tokens (`a b` -> `ab`, `1 .5` -> `1.5`, `- 1` -> `-1`) *)
Theorem glue_condition_needed :
  (gap_ok [97] [32] [] [98] = false /\ lex_items [97; 98] <> lex_items [97; 32; 98]) /\
  (gap_ok [49] [32] [] [46; 53] = false /\ lex_items [49; 46; 53] <> lex_items [49; 32; 46; 53]) /\
  (gap_ok [45] [32] [] [49] = false /\ lex_items [45; 49] <> lex_items [45; 32; 49]).
Proof. exact glue_needed. Qed.
Print Assumptions glue_condition_needed.

(* Edits applied one after the other (format.rs applies its span edits in
   descending offset order), each satisfying the conditions on the text it is
   applied to. *)
Theorem edits_in_gaps_preserve_tokens : forall es src, edits_ok src es = true ->
  exists src', apply_edits src es = Some src' /\ lex_items src' = lex_items src.
Proof. exact edits_in_gaps_lemma. Qed.
Print Assumptions edits_in_gaps_preserve_tokens.

(* descending order: a splice leaves the text in front of it unchanged, so the
   offsets of the edits still to be applied keep their meaning *)
Theorem splice_keeps_text_before : forall src e src', splice src e = Some src' ->
  exists pre q q', src = pre ++ q /\ src' = pre ++ q' /\ blen pre = e_start e.
Proof. exact splice_keeps_prefix. Qed.
Print Assumptions splice_keeps_text_before.

(* Per-line indentation edit (apply_indentation_edits): the leading whitespace
   of the line that starts after pre is replaced by n spaces.  Its hypothesis
   contains "the line start is a lexer step boundary" (krun inside gap_ok): the
   line does not start inside a token. *)
Theorem line_indent_edit_in_gap : forall pre rest n,
  gap_edit_ok (pre ++ rest) (indent_edit pre rest n) = true ->
  exists src', splice (pre ++ rest) (indent_edit pre rest n) = Some src' /\
               lex_items src' = lex_items (pre ++ rest).
Proof. exact (fun pre rest n => splice_in_gap_edit (pre ++ rest) (indent_edit pre rest n)). Qed.
Print Assumptions line_indent_edit_in_gap.

(* satisfiable: `{\n    x\n}`, line 1 re-indented to two spaces *)
Theorem line_indent_edit_example :
  line_start ex_pre = true /\ gap_edit_ok (ex_pre ++ ex_rest) (indent_edit ex_pre ex_rest 2) = true /\
  splice (ex_pre ++ ex_rest) (indent_edit ex_pre ex_rest 2) = Some [123; 10; 32; 32; 120; 10; 125].
Proof. exact line_indent_example. Qed.
Print Assumptions line_indent_edit_example.

(* Without that hypothesis the statement is false: `"a\n  b"`, line 1 starts
   inside the string token; the edit format.rs made before the fix (un-indent
   the line) changes the token.  The condition rejects it. *)
Theorem line_indent_edit_refuted :
  line_start ms_pre = true /\
  gap_edit_ok (ms_pre ++ ms_rest) (indent_edit ms_pre ms_rest 0) = false /\
  exists src', splice (ms_pre ++ ms_rest) (indent_edit ms_pre ms_rest 0) = Some src' /\
               lex_items src' <> lex_items (ms_pre ++ ms_rest).
Proof. exact line_indent_refuted_lemma. Qed.
Print Assumptions line_indent_edit_refuted.

(* the position-free step function used by the conditions IS the lexer: at every
   offset of every source, one iteration of Lex.lex_step consumes the text and
   produces the kind `kstep` says *)
Theorem kstep_is_lex_step : forall p s, s <> [] ->
  agrees s (lex_step cfg_fixed (p ++ s) (blen p)) (kstep s).
Proof. exact kstep_agrees. Qed.
Print Assumptions kstep_is_lex_step.
