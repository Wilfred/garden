(* Proofs about the generated built-in table (gen/Builtins.v)
   and the small abstract lemmas that give the table conditions their meaning.

   The table is finite and, by the translator's self-check, has exactly one row
   per variant of BuiltInFunctionKind / BuiltInMethodKind.  A fact about all its
   rows is one boolean `forallb`, and a fact about some row one `existsb`, over
   the table, decided by vm_compute and read back with forallb_forall /
   existsb_exists; no row of the table is ever written out (the one row literal,
   in index_guard_nonvacuous_lemma, is a made-up bad row).  These evaluations
   are what a source edit breaks. *)
From Coq Require Import NArith List String Bool Lia Arith.
From Garden Require Import Sandbox gen.Builtins.
Import ListNotations.
Open Scope string_scope.
Open Scope nat_scope.

Lemma all_kinds_classified_lemma : forall r, In r builtin_table -> classified r = true.
Proof. apply forallb_forall. vm_compute. reflexivity. Qed.

Lemma rows_sandbox_guarded : forall r, In r builtin_table -> sandbox_guarded r = true.
Proof. apply forallb_forall. vm_compute. reflexivity. Qed.

Lemma effectful_guarded_lemma :
  forall r, In r builtin_table -> effectful r = true -> guarded_before_effect r = true.
Proof.
  intros r Hin He. pose proof (rows_sandbox_guarded r Hin) as H.
  unfold sandbox_guarded in H. rewrite He in H. exact H.
Qed.

Lemma rows_effectful_or_clean :
  forall r, In r builtin_table -> effectful r || no_unaudited_effect r = true.
Proof. apply (forallb_forall (fun r => effectful r || no_unaudited_effect r)). vm_compute. reflexivity. Qed.

Lemma pure_rows_have_no_effect_call_lemma :
  forall r, In r builtin_table -> effectful r = false -> no_unaudited_effect r = true.
Proof. intros r Hin He. pose proof (rows_effectful_or_clean r Hin) as H. rewrite He in H. exact H. Qed.

Definition table_keys : list (kind * string) := map (fun r => (r_kind r, r_variant r)) builtin_table.
Definition audit_keys : list (kind * string) := map (fun p => (fst (fst p), snd (fst p))) audited.

Definition key_eqb (a b : kind * string) : bool := kind_eqb (fst a) (fst b) && String.eqb (snd a) (snd b).

Fixpoint nodup_keys (l : list (kind * string)) : bool :=
  match l with
  | [] => true
  | k :: t => negb (existsb (key_eqb k) t) && nodup_keys t
  end.

(* with all_kinds_classified_lemma: the audit list and the table name exactly the same built-ins, each once *)
Lemma audit_matches_table_lemma :
  nodup_keys table_keys = true /\ nodup_keys audit_keys = true /\
  forallb (fun k => existsb (key_eqb k) table_keys) audit_keys = true /\
  N.of_nat (List.length function_rows) = function_variant_count /\
  N.of_nat (List.length method_rows) = method_variant_count /\
  function_match_tail_is_ok = true /\ method_match_tail_is_ok = true.
Proof. vm_compute. repeat split; reflexivity. Qed.

(* C24: meaning of guarded_before_effect on the abstract arm *)
Lemma guarded_arm_emits_nothing :
  forall r, guarded_before_effect r = true -> run_arm true (arm_actions r) = ([], Forbidden).
Proof.
  intros r H. unfold guarded_before_effect in H.
  apply andb_prop in H as [_ H].
  unfold arm_actions.
  destruct (r_guard r) as [g|]; [|discriminate].
  apply andb_prop in H as [H Hord].
  rewrite H.
  destruct (r_effect r) as [e|].
  - rewrite Hord. reflexivity.
  - reflexivity.
Qed.

Lemma sandboxed_effectful_arm_emits_nothing_lemma :
  forall r, In r builtin_table -> effectful r = true -> run_arm true (arm_actions r) = ([], Forbidden).
Proof. intros r Hin He. apply guarded_arm_emits_nothing. now apply effectful_guarded_lemma. Qed.

Fixpoint no_effect (acts : list action) : bool :=
  match acts with
  | [] => true
  | AEffect _ :: _ => false
  | AGuard :: t => no_effect t
  | AOther :: t => no_effect t
  end.

Lemma guard_before_effects_refuses :
  forall pre post, no_effect pre = true -> run_arm true (pre ++ AGuard :: post) = ([], Forbidden).
Proof.
  induction pre as [|a pre IH]; intros post H; cbn [app run_arm].
  - reflexivity.
  - destruct a; cbn [no_effect] in H; cbn [run_arm]; try discriminate; auto.
Qed.

Definition has_row (table : list row) (v : string) (p : row -> bool) : bool :=
  existsb (fun r => String.eqb (r_variant r) v && p r) table.

Lemma has_row_sound : forall table v p, has_row table v p = true ->
  exists r, In r table /\ r_variant r = v /\ p r = true.
Proof.
  intros table v p H. apply existsb_exists in H. destruct H as (r & Hin & H).
  apply andb_prop in H as [Hv Hp]. apply String.eqb_eq in Hv. now exists r.
Qed.

Lemma effectful_rows_exist_lemma :
  exists r1 r2 r3, In r1 builtin_table /\ r_variant r1 = "FsWriteFile" /\ effectful r1 = true /\
                   guarded_before_effect r1 = true /\
                   In r2 builtin_table /\ r_variant r2 = "PreludeReadLine" /\ effectful r2 = true /\
                   In r3 builtin_table /\ r_variant r3 = "PreludePrintln" /\ effectful r3 = false /\
                   guarded_before_effect r3 = false.
Proof.
  destruct (has_row_sound builtin_table "FsWriteFile" (fun r => effectful r && guarded_before_effect r))
    as (r1 & I1 & V1 & P1); [vm_compute; reflexivity|].
  destruct (has_row_sound builtin_table "PreludeReadLine" effectful) as (r2 & I2 & V2 & P2); [vm_compute; reflexivity|].
  destruct (has_row_sound builtin_table "PreludePrintln" (fun r => negb (effectful r || guarded_before_effect r)))
    as (r3 & I3 & V3 & P3); [vm_compute; reflexivity|].
  apply andb_prop in P1 as [E1 G1].
  apply negb_true_iff, orb_false_elim in P3. destruct P3 as [E3 G3].
  exists r1, r2, r3. repeat split; assumption.
Qed.

(* Sandboxed mode is switched on (with limits) in both entry points, before evaluation. *)
Lemma entry_points_limits_ok : forall l, In l sandbox_entry_points -> limits_ok l = true.
Proof. apply forallb_forall. vm_compute. reflexivity. Qed.

Lemma sandbox_limits_set_lemma :
  forall l, In l sandbox_entry_points ->
  exists t s, l_tick_limit l = Some t /\ (0 < t)%N /\ l_stack_limit l = Some s /\ (0 < s)%N /\
              l_enforce_sandbox l = Some true /\ l_set_before_eval l = true.
Proof.
  intros l Hin. pose proof (entry_points_limits_ok l Hin) as H. unfold limits_ok in H.
  destruct (l_tick_limit l) as [t|]; [|discriminate].
  destruct (l_stack_limit l) as [s|]; [|discriminate].
  destruct (l_enforce_sandbox l) as [[|]|]; try discriminate.
  apply andb_prop in H as [[[Ht Hs]%andb_prop Hb]%andb_prop _].
  exists t, s. repeat split; auto; now apply N.ltb_lt.
Qed.

Lemma entry_points_are_the_two_sandbox_commands :
  map l_file sandbox_entry_points = ["sandboxed_playground.rs"; "test_runner.rs"].
Proof. vm_compute. reflexivity. Qed.

Lemma sandbox_enforced_in_entry_points_lemma :
  map l_file sandbox_entry_points = ["sandboxed_playground.rs"; "test_runner.rs"] /\
  forall l, In l sandbox_entry_points -> l_enforce_sandbox l = Some true /\ l_set_before_eval l = true.
Proof.
  split; [exact entry_points_are_the_two_sandbox_commands|].
  intros l Hin. destruct (sandbox_limits_set_lemma l Hin) as (t & s & _ & _ & _ & _ & He & Hb). now split.
Qed.

Lemma eval_loop_shape_lemma : loop_ok eval_loop = true.
Proof. vm_compute. reflexivity. Qed.

(* C02: literal indices are below the checked arity *)

Lemma arity_fn_shape_lemma : arity_fn_ok arity_fn = true.
Proof. vm_compute. reflexivity. Qed.

Lemma builtin_index_guard_lemma : forall r, In r builtin_table -> index_guarded r = true.
Proof. apply forallb_forall. vm_compute. reflexivity. Qed.

Lemma index_guarded_meaning :
  forall r u, index_guarded r = true -> In u (r_uses r) ->
  exists a n i, r_arity r = Some a /\ a_expected a = Some n /\ a_toplevel a = true /\ a_propagated a = true /\
                u_index u = Some i /\ (i < n)%N /\ (a_off a < u_off u)%N.
Proof.
  intros r u H Hu. unfold index_guarded in H.
  destruct (r_arity r) as [a|].
  - destruct (a_expected a) as [n|] eqn:En.
    + apply andb_prop in H as [H Hall].
      apply andb_prop in H as [Ht Hp].
      pose proof (proj1 (forallb_forall _ _) Hall u Hu) as Hg.
      unfold use_guarded in Hg. destruct (u_index u) as [i|] eqn:Ei; [|discriminate].
      apply andb_prop in Hg as [H1 H2].
      exists a, n, i. repeat split; auto; now apply N.ltb_lt.
    + destruct (r_uses r); [contradiction|discriminate].
  - destruct (r_uses r); [contradiction|discriminate].
Qed.

Lemma builtin_index_guard_meaning_lemma :
  forall r u, In r builtin_table -> In u (r_uses r) ->
  exists a n i, r_arity r = Some a /\ a_expected a = Some n /\ a_toplevel a = true /\ a_propagated a = true /\
                u_index u = Some i /\ (i < n)%N /\ (a_off a < u_off u)%N.
Proof. intros r u Hr Hu. exact (index_guarded_meaning r u (builtin_index_guard_lemma r Hr) Hu). Qed.

Lemma arity_matches_declaration_lemma :
  forall r, In r builtin_table -> arity_matches_declaration r = true.
Proof. apply forallb_forall. vm_compute. reflexivity. Qed.

(* The model of check_arity: it never indexes out of bounds when the two vectors have
   the same length (which both call sites guarantee: arity_fn_shape_lemma), and after
   it succeeds every index below the expected arity is in bounds in both vectors. *)
Lemma check_arity_no_panic :
  forall (P V : Type) expected (ps : list P) (vs : list V),
  List.length ps = List.length vs -> check_arity_model expected ps vs <> ArityPanic.
Proof.
  intros P V expected ps vs Hlen. unfold check_arity_model.
  destruct (Nat.eqb (List.length vs) expected); [discriminate|].
  destruct (Nat.ltb expected (List.length vs)) eqn:Hlt; [|discriminate].
  apply Nat.ltb_lt in Hlt. rewrite <- Hlen in Hlt.
  destruct (nth_error ps expected) eqn:Hn; [discriminate|].
  apply nth_error_None in Hn. lia.
Qed.

Lemma index_after_check_in_bounds :
  forall (P V : Type) expected (ps : list P) (vs : list V) i,
  List.length ps = List.length vs -> check_arity_model expected ps vs = ArityOk -> i < expected ->
  nth_error vs i <> None /\ nth_error ps i <> None.
Proof.
  intros P V expected ps vs i Hlen Hok Hi. unfold check_arity_model in Hok.
  destruct (Nat.eqb (List.length vs) expected) eqn:He.
  - apply Nat.eqb_eq in He. split; apply nth_error_Some; lia.
  - destruct (Nat.ltb expected (List.length vs)); [destruct (nth_error ps expected)|]; discriminate.
Qed.

(* Every literal index of every arm is in bounds at run time: table + check_arity model. *)
Lemma builtin_literal_index_in_bounds_lemma :
  forall r u, In r builtin_table -> In u (r_uses r) ->
  exists n i, u_index u = Some i /\
    forall (P V : Type) (ps : list P) (vs : list V),
      List.length ps = List.length vs -> check_arity_model (N.to_nat n) ps vs = ArityOk ->
      nth_error vs (N.to_nat i) <> None /\ nth_error ps (N.to_nat i) <> None.
Proof.
  intros r u Hr Hu.
  destruct (builtin_index_guard_meaning_lemma r u Hr Hu) as (a & n & i & _ & _ & _ & _ & Hi & Hlt & _).
  exists n, i. split; [exact Hi|].
  intros P V ps vs Hlen Hok. apply (index_after_check_in_bounds P V (N.to_nat n)); auto. lia.
Qed.

Lemma index_guard_nonvacuous_lemma :
  (exists r, In r builtin_table /\ r_variant r = "StringSubstring" /\
             (exists a, r_arity r = Some a /\ a_expected a = Some 2%N) /\
             existsb (fun u => match u_index u with Some 1%N => true | _ => false end) (r_uses r) = true) /\
  index_guarded {| r_kind := KMethod; r_variant := "StringSubstring"; r_ns := "String"; r_name := "substring";
                   r_decl_params := Some 2%N;
                   r_arity := Some {| a_expected := Some 2%N; a_off := 14%N; a_toplevel := true;
                                      a_propagated := true; a_unique := true |};
                   r_uses := [ {| u_what := UPosition; u_index := Some 2%N; u_off := 1500%N |} ];
                   r_guard := None; r_effect := None; r_helper_effect := None; r_std_paths := [];
                   r_block_arm := true; r_shared_arm := false |} = false.
Proof.
  split; [|reflexivity].
  destruct (has_row_sound builtin_table "StringSubstring" (fun r =>
              match r_arity r with
              | Some a => match a_expected a with Some n => (n =? 2)%N | None => false end
              | None => false
              end && existsb (fun u => match u_index u with Some 1%N => true | _ => false end) (r_uses r)))
    as (r & I & V & P); [vm_compute; reflexivity|].
  apply andb_prop in P as [Pa Pu].
  exists r. repeat split; [exact I | exact V | | exact Pu].
  destruct (r_arity r) as [a|]; [|discriminate]. exists a. split; [reflexivity|].
  destruct (a_expected a) as [n|]; [|discriminate]. apply N.eqb_eq in Pa. now subst n.
Qed.

(* C25: a tick-counted machine with a limit halts within the limit *)

Section TickBound.
  Variable state : Type.
  Variable step : state -> option state.     (* None = the run has ended (value, error or limit error) *)
  Variable ticks : state -> nat.
  Variable limit : nat.
  Hypothesis step_ticks : forall s s', step s = Some s' -> ticks s' = S (ticks s).
  Hypothesis limit_stops : forall s, limit <= ticks s -> step s = None.

  Fixpoint iter (k : nat) (s : state) : option state :=
    match k with
    | 0 => Some s
    | S k' => match step s with Some s' => iter k' s' | None => None end
    end.

  Definition halts_within (n : nat) (s : state) : Prop :=
    exists k s', k <= n /\ iter k s = Some s' /\ step s' = None.

  Lemma ticks_bound_terminates_aux :
    forall n s, limit - ticks s <= n -> halts_within n s.
  Proof.
    induction n as [|n IH]; intros s Hn.
    - exists 0, s. repeat split; auto. apply limit_stops. lia.
    - destruct (step s) as [s'|] eqn:Hs.
      + pose proof (step_ticks s s' Hs) as Ht.
        destruct (IH s') as (k & s'' & Hk & Hit & Hend); [lia|].
        exists (S k), s''. repeat split; [lia| |exact Hend].
        cbn [iter]. rewrite Hs. exact Hit.
      + exists 0, s. repeat split; auto. lia.
  Qed.

  Lemma ticks_bound_terminates_sec : forall s, halts_within (limit - ticks s) s.
  Proof. intros s. now apply ticks_bound_terminates_aux. Qed.

  Lemma no_run_longer_than_limit_sec :
    forall k s s', iter k s = Some s' -> k <= limit - ticks s \/ k = 0.
  Proof.
    induction k as [|k IH]; intros s s' H; [now right|left].
    cbn [iter] in H. destruct (step s) as [s1|] eqn:Hs; [|discriminate].
    pose proof (step_ticks s s1 Hs) as Ht.
    assert (Hlt : ticks s < limit).
    { destruct (le_lt_dec limit (ticks s)) as [Hle|]; auto. rewrite (limit_stops s Hle) in Hs. discriminate. }
    destruct (IH s1 s' H) as [Hk|Hk]; lia.
  Qed.
End TickBound.

(* The interpreter loop refined: a step either evaluates one expression (ticks + 1,
   may push at most one frame) or pops a finished frame (no tick, depth - 1).  With
   potential 2 * (limit - ticks) + depth every step decreases the potential, so a
   run takes at most 2 * limit + depth steps. *)
Section TickAndFrameBound.
  Variable state : Type.
  Variable step : state -> option state.
  Variable ticks : state -> nat.
  Variable depth : state -> nat.
  Variable limit : nat.
  Hypothesis step_kind : forall s s', step s = Some s' ->
    (ticks s' = S (ticks s) /\ depth s' <= S (depth s) /\ ticks s' < limit) \/
    (ticks s' = ticks s /\ S (depth s') = depth s).

  Definition potential (s : state) : nat := 2 * (limit - ticks s) + depth s.

  Lemma step_decreases_potential :
    forall s s', ticks s <= limit -> step s = Some s' -> potential s' < potential s /\ ticks s' <= limit.
  Proof.
    intros s s' Hle H. unfold potential. destruct (step_kind s s' H) as [(Ht & Hd & Hl)|(Ht & Hd)]; lia.
  Qed.

  Lemma run_length_bounded_sec :
    forall k s s', ticks s <= limit -> iter state step k s = Some s' -> k <= potential s.
  Proof.
    induction k as [|k IH]; intros s s' Hle H; [lia|].
    cbn [iter] in H. destruct (step s) as [s1|] eqn:Hs; [|discriminate].
    destruct (step_decreases_potential s s1 Hle Hs) as [Hp Hle1].
    pose proof (IH s1 s' Hle1 H). lia.
  Qed.
End TickAndFrameBound.

(* Non-vacuity of the section hypotheses: a counter machine. *)
Definition counter_step (limit : nat) (s : nat) : option nat := if Nat.ltb s limit then Some (S s) else None.

Lemma counter_machine_instance :
  forall limit, halts_within nat (counter_step limit) (limit - 0) 0.
Proof.
  intros limit. apply (ticks_bound_terminates_sec nat (counter_step limit) (fun s => s) limit).
  - intros s s' H. unfold counter_step in H. destruct (Nat.ltb s limit); inversion H; reflexivity.
  - intros s H. unfold counter_step. destruct (Nat.ltb s limit) eqn:E; auto. apply Nat.ltb_lt in E. lia.
Qed.
