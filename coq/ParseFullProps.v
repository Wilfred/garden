(* Round trip for the model of ParseFull.v: printing a tree of the domain `wf_item` and parsing the tokens with
   the parser as parser.rs has it (good_shape, method parenthesis must touch) gives the tree back.

   Every result has the form "for every large enough fuel, parser (text of x ++ rest) = Some (x, rest)", under a
   condition on the first token of rest that keeps the parser from reading on (`eventually` of ParseExprProps.v hides the
   fuel).  There is one such lemma per syntactic form, with the same fact about the parts of the form as premises;
   the induction on the size of the tree at the end (`roundtrip_all`) only puts them together.  What the parser
   does on a form is said first as a rule over an arbitrary record `rec` of parsers ("if the parts are read so, the
   body returns so"), so that the case analysis on the next token is done on small terms. *)
From Coq Require Import PeanoNat Bool List Lia.
From Garden Require Import ParseExpr ParseExprProps ParseFull.
Import ListNotations.

Notation R := (P good_shape true).

Lemma R_S f : R (S f) = F good_shape true (R f).
Proof. reflexivity. Qed.

(* a parser of level S f is its body over the parsers of level f *)
Ltac step :=
  rewrite R_S;
  cbn [F p_expr p_loop p_exprs p_tuple p_stmts p_if p_cases p_hint p_hints p_params p_syms].

(* brings a text to the form t1 :: t2 :: ... :: (a ++ (b ++ ...)) *)
Ltac assoc := repeat (rewrite <- ?app_assoc; progress cbn [app]); rewrite <- ?app_assoc.

Ltac split_wf W := repeat (apply andb_true_iff in W; let W' := fresh "W" in destruct W as [W W']).

Definition first_ok (k : kind) : bool :=
  match k with
  | KInt _ | KFloat _ | KStr _ | KSym _ | KLP | KLB => true
  | KKw w => match w with
             | Wlet | Wfun | Wassert | Wif | Wwhile | Wfor | Wbreak | Wcontinue | Wreturn | Wmatch => true
             | _ => false
             end
  | _ => false
  end.

Definition starts_ok (ts : list tok) : bool := match ts with T k _ :: _ => first_ok k | [] => false end.

Lemma print_first e : forall s, exists k tl,
  print s e = T k s :: tl /\ first_ok k = true /\ (k = KKw Wfun -> starts_fun e = true).
Proof.
  induction e; intros s; cbn [print starts_fun];
    try (eexists _, _; split; [reflexivity|split; [reflexivity|try discriminate; auto]]).
  - destruct (IHe1 s) as (k & tl & -> & Hk). eexists _, _. cbn [app]. split; [reflexivity|assumption].
  - destruct items as [|a [|b l]]; eexists _, _; (split; [reflexivity|split; [reflexivity|discriminate]]).
  - destruct (IHe s) as (k & tl & -> & Hk). eexists _, _. cbn [app]. split; [reflexivity|assumption].
  - destruct (IHe s) as (k & tl & -> & Hk). eexists _, _. cbn [app]. split; [reflexivity|assumption].
  - destruct (IHe s) as (k & tl & -> & Hk). eexists _, _. cbn [app]. split; [reflexivity|assumption].
  - destruct e; eexists _, _; (split; [reflexivity|split; [reflexivity|discriminate]]).
Qed.

Lemma print_starts e s r : starts_ok (print s e ++ r) = true.
Proof. destruct (print_first e s) as (k & tl & -> & Hk & _). exact Hk. Qed.

(* what may follow a complete expression (`boundary`: one read with the flag off, which leaves operators alone) *)
Definition stops (ts : list tok) : bool :=
  match ts with
  | [] => true
  | T k s :: _ =>
      match k with
      | KLP | KLC => negb (is_glued s)
      | KDot | KColonColon | KOp _ | KEq | KPlusEq | KMinusEq | KKw Welse => false
      | _ => true
      end
  end.

Definition boundary (ts : list tok) : bool := match ts with T (KOp _) _ :: _ => true | _ => stops ts end.

Definition follow (allow : bool) (ts : list tok) : bool := if allow then stops ts else boundary ts.

(* what may follow a statement that may be a bare `return`: the next token is on a later line *)
Definition stops_nl (ts : list tok) : bool :=
  stops ts && match ts with [] => true | T _ s :: _ => negb (not_nl s) end.

(* what may follow a head (an expression before the trailing loop looks at it) *)
Definition hfollow (ts : list tok) : bool :=
  match ts with
  | T KEq _ :: _ | T KPlusEq _ :: _ | T KMinusEq _ :: _ | T KLC Glued :: _ | T (KKw Welse) _ :: _ => false
  | _ => true
  end.

(* what may follow the first token of a text that is not an assignment *)
Definition not_assign (ts : list tok) : bool :=
  match ts with T KEq _ :: _ | T KPlusEq _ :: _ | T KMinusEq _ :: _ => false | _ => true end.

(* what may follow an expression e inside a larger one: a boundary, or a suffix that the domain allows after e
   (a callee is not an operator application or a field access, a receiver is not an operator application) *)
Definition fits (e : expr) (ts : list tok) : bool :=
  match ts with
  | T KLP Glued :: _ => negb (is_bin e) && negb (is_dot e)
  | T KDot _ :: _ => negb (is_bin e)
  | _ => boundary ts
  end.

Lemma stops_nl_stops ts : stops_nl ts = true -> stops ts = true.
Proof. unfold stops_nl. intros H. apply andb_true_iff in H. tauto. Qed.
Lemma stops_boundary ts : stops ts = true -> boundary ts = true.
Proof. destruct ts as [|[k s] r]; [reflexivity|]. destruct k; cbn; auto. Qed.
Lemma follow_boundary a ts : follow a ts = true -> boundary ts = true.
Proof. destruct a; [apply stops_boundary|auto]. Qed.
Lemma boundary_fits e ts : boundary ts = true -> fits e ts = true.
Proof. destruct ts as [|[k s] r]; [reflexivity|]. destruct k; auto; try discriminate. destruct s; auto; discriminate. Qed.
Lemma fits_bin e ts : is_bin e = true -> fits e ts = true -> boundary ts = true.
Proof. intros B. destruct ts as [|[k s] r]; [reflexivity|]. destruct k; auto; [destruct s; auto|]; cbn [fits]; rewrite B; auto. Qed.
Lemma boundary_hfollow ts : boundary ts = true -> hfollow ts = true.
Proof.
  destruct ts as [|[k s] r]; [reflexivity|]. destruct k; try reflexivity; try discriminate; [destruct s|destruct w]; auto; discriminate.
Qed.
Lemma fits_hfollow e ts : fits e ts = true -> hfollow ts = true.
Proof. destruct ts as [|[k s] r]; [reflexivity|]. destruct k; try reflexivity; apply boundary_hfollow. Qed.
Lemma hfollow_not_assign ts : hfollow ts = true -> not_assign ts = true.
Proof. destruct ts as [|[k s] r]; [reflexivity|]. destruct k; auto. Qed.
Lemma starts_not_assign ts : starts_ok ts = true -> not_assign ts = true.
Proof. destruct ts as [|[k s] r]; [discriminate|]. destruct k; auto; discriminate. Qed.
Lemma starts_stops k s r : first_ok k = true -> is_glued s = false -> stops (T k s :: r) = true.
Proof.
  intros Hk Hs. destruct k; try discriminate; cbn; rewrite ?Hs; try reflexivity. destruct w; try discriminate; reflexivity.
Qed.

Lemma stops_print e s r : is_glued s = false -> stops (print s e ++ r) = true.
Proof. intros Hs. destruct (print_first e s) as (k & tl & -> & Hk & _). cbn [app]. now apply starts_stops. Qed.

Lemma stops_nl_print e r : stops_nl (print NewLine e ++ r) = true.
Proof.
  unfold stops_nl. rewrite stops_print by reflexivity.
  destruct (print_first e NewLine) as (k & tl & -> & _). reflexivity.
Qed.

Definition ok_expr (allow : bool) (e : expr) : Prop :=
  forall s rest, follow allow rest = true ->
  exists f0, forall f, f0 <= f -> p_expr (R f) allow (print s e ++ rest) = Some (e, rest).
Definition stmt_ok (e : expr) : Prop :=
  forall s rest, stops_nl rest = true -> eventually (fun f => p_expr (R f) true (print s e ++ rest) = Some (e, rest)).

Lemma expr_stmt_ok e : ok_expr true e -> stmt_ok e.
Proof. intros H s rest Hr. apply H. now apply stops_nl_stops. Qed.

Lemma commas_one {A} (pr : sp -> A -> list tok) s a : commas_with pr s [a] = pr s a.
Proof. reflexivity. Qed.
Lemma commas_cons2 {A} (pr : sp -> A -> list tok) s a b l :
  commas_with pr s (a :: b :: l) = pr s a ++ T KComma Glued :: commas_with pr Spaced (b :: l).
Proof. reflexivity. Qed.
Lemma stmts_cons {A} (pr : sp -> A -> list tok) s a l : stmts_with pr s (a :: l) = pr s a ++ stmts_with pr NewLine l.
Proof. reflexivity. Qed.

(* the token that is_term brk accepts *)
Definition term (brk : bool) : kind := if brk then KRB else KRP.

Lemma first_not_term brk k : first_ok k = true -> is_term brk k = false.
Proof. destruct k; try discriminate; reflexivity. Qed.

Lemma exprs_body_last rec brk ts a s r : starts_ok ts = true ->
  p_expr rec true ts = Some (a, T (term brk) s :: r) -> exprs_body rec brk ts = Some ([a], T (term brk) s :: r).
Proof.
  destruct ts as [|[k s0] ts]; [discriminate|]. intros Hs H1. unfold exprs_body.
  rewrite (first_not_term brk k Hs), H1. destruct brk; reflexivity.
Qed.

Lemma exprs_body_more rec brk ts a s r l r' : starts_ok ts = true ->
  p_expr rec true ts = Some (a, T KComma s :: r) -> p_exprs rec brk r = Some (l, r') ->
  exprs_body rec brk ts = Some (a :: l, r').
Proof.
  destruct ts as [|[k s0] ts]; [discriminate|]. intros Hs H1 H2. unfold exprs_body.
  now rewrite (first_not_term brk k Hs), H1, H2.
Qed.

Lemma exprs_ok brk l : Forall (ok_expr true) l -> forall s rest, eventually (fun f =>
  p_exprs (R f) brk (commas_with print s l ++ T (term brk) Glued :: rest) = Some (l, T (term brk) Glued :: rest)).
Proof.
  induction 1 as [|a l Ha _ IH]; intros s rest.
  - apply ev_S, ev_all. intros f. step. destruct brk; reflexivity.
  - destruct l as [|b l'].
    + rewrite commas_one. apply ev_S, (ev_mono (Ha s (T (term brk) Glued :: rest) ltac:(now destruct brk))).
      intros f H1. step. now apply exprs_body_last; [apply print_starts|].
    + rewrite commas_cons2. assoc. apply ev_S. eapply (ev_mono (ev_and (Ha s (T KComma Glued :: _) eq_refl) (IH Spaced rest))).
      intros f [H1 H2]. step. eapply exprs_body_more; [apply print_starts|exact H1|exact H2].
Qed.

Lemma tuple_body_more rec s r e r1 l r2 : starts_ok r = true ->
  p_expr rec true r = Some (e, r1) -> p_tuple rec r1 = Some (l, r2) -> tuple_body rec (T KComma s :: r) = Some (e :: l, r2).
Proof.
  intros Hs H1 H2. destruct r as [|[k s0] r]; [discriminate|].
  destruct k; try discriminate; cbn [tuple_body]; now rewrite H1, H2.
Qed.

Lemma tuple_ok l : Forall (ok_expr true) l -> forall rest, eventually (fun f =>
  p_tuple (R f) (T KComma Glued :: commas_with print Spaced l ++ T KRP Glued :: rest) = Some (l, T KRP Glued :: rest)).
Proof.
  induction 1 as [|a l Ha _ IH]; intros rest; [apply ev_S, ev_all; reflexivity|].
  destruct l as [|b l'].
  - rewrite commas_one. apply ev_S, ev_S, (ev_mono (ev_shift _ (Ha Spaced (T KRP Glued :: rest) eq_refl))).
    intros f H1. step. eapply tuple_body_more; [apply print_starts|exact H1|]. step. reflexivity.
  - rewrite commas_cons2. assoc. apply ev_S.
    eapply (ev_mono (ev_and (Ha Spaced (T KComma Glued :: _) eq_refl) (IH rest))).
    intros f [H1 H2]. step. eapply tuple_body_more; [apply print_starts|exact H1|exact H2].
Qed.

Lemma stmts_body_more rec ts e r l r' : starts_ok ts = true ->
  p_expr rec true ts = Some (e, r) -> p_stmts rec r = Some (l, r') -> stmts_body rec ts = Some (e :: l, r').
Proof.
  intros Hs H1 H2. destruct ts as [|[k s] ts]; [discriminate|].
  destruct k; try discriminate; cbn [stmts_body]; now rewrite H1, H2.
Qed.

Lemma stmts_ok b : Forall stmt_ok b -> forall s s' rest, (b <> [] -> s' = NewLine) -> eventually (fun f =>
  p_stmts (R f) (stmts_with print s b ++ T KRC s' :: rest) = Some (b, T KRC s' :: rest)).
Proof.
  induction 1 as [|a l Ha _ IH]; intros s s' rest Hs'.
  - apply ev_S, ev_all. intros f. step. reflexivity.
  - rewrite (Hs' ltac:(discriminate)), stmts_cons, <- app_assoc. apply ev_S.
    refine (ev_mono (ev_and (Ha s (stmts_with print NewLine l ++ T KRC NewLine :: rest) _) (IH NewLine NewLine rest ltac:(auto))) _).
    { destruct l as [|b l']; [reflexivity|]. rewrite stmts_cons, <- app_assoc. apply stops_nl_print. }
    intros f [H1 H2]. step. eapply stmts_body_more; [apply print_starts|exact H1|exact H2].
Qed.

Lemma block_ok b : Forall stmt_ok b -> forall rest, eventually (fun f => block_ (R f) (block_with print b ++ rest) = Some (b, rest)).
Proof.
  intros Hb rest. unfold block_with. assoc.
  refine (ev_mono (stmts_ok b Hb Spaced (match b with [] => Spaced | _ => NewLine end) rest _) _).
  { destruct b; [congruence|reflexivity]. }
  intros f H1. cbn [block_]. now rewrite H1.
Qed.

Lemma hint_ind' (Pr : hint -> Prop) :
  (forall x args, Forall Pr args -> Pr (HName x args)) ->
  (forall items, Forall Pr items -> Pr (HTuple items)) ->
  forall h, Pr h.
Proof.
  intros H1 H2. fix IH 1. intros [x args|items]; [apply H1|apply H2].
  - induction args; constructor; auto.
  - induction items; constructor; auto.
Qed.

Definition hint_follow (ts : list tok) : bool := match ts with T (KOp KLessThan) _ :: _ => false | _ => true end.
(* the token that is_close angle accepts *)
Definition close (angle : bool) : kind := if angle then KOp KGreaterThan else KRP.

Definition hint_ok (h : hint) : Prop :=
  forall s rest, hint_follow rest = true -> eventually (fun f => p_hint (R f) (print_hint s h ++ rest) = Some (h, rest)).

Definition hstart (ts : list tok) : bool := match ts with T (KSym _) _ :: _ | T KLP _ :: _ => true | _ => false end.

Lemma print_hint_start h s r : hstart (print_hint s h ++ r) = true.
Proof. destruct h as [x [|a l]|items]; reflexivity. Qed.

Lemma hstart_not_close angle k s ts : hstart (T k s :: ts) = true -> is_close angle k = false.
Proof. destruct k; try discriminate; reflexivity. Qed.

Lemma hints_body_last rec angle ts h s r : hstart ts = true ->
  p_hint rec ts = Some (h, T (close angle) s :: r) -> hints_body rec angle ts = Some ([h], T (close angle) s :: r).
Proof.
  destruct ts as [|[k s0] ts]; [discriminate|]. intros Hs H1. unfold hints_body.
  rewrite (hstart_not_close angle k s0 ts Hs), H1. destruct angle; reflexivity.
Qed.

Lemma hints_body_more rec angle ts h s r l r' : hstart ts = true ->
  p_hint rec ts = Some (h, T KComma s :: r) -> p_hints rec angle r = Some (l, r') ->
  hints_body rec angle ts = Some (h :: l, r').
Proof.
  destruct ts as [|[k s0] ts]; [discriminate|]. intros Hs H1 H2. unfold hints_body.
  now rewrite (hstart_not_close angle k s0 ts Hs), H1, H2.
Qed.

Lemma hints_ok angle l : Forall hint_ok l -> forall s rest, eventually (fun f =>
  p_hints (R f) angle (commas_with print_hint s l ++ T (close angle) Glued :: rest) = Some (l, T (close angle) Glued :: rest)).
Proof.
  induction 1 as [|a l Ha _ IH]; intros s rest.
  - apply ev_S, ev_all. intros f. step. destruct angle; reflexivity.
  - destruct l as [|b l'].
    + rewrite commas_one. apply ev_S, (ev_mono (Ha s (T (close angle) Glued :: rest) ltac:(now destruct angle))).
      intros f H1. step. now apply hints_body_last; [apply print_hint_start|].
    + rewrite commas_cons2. assoc. apply ev_S. eapply (ev_mono (ev_and (Ha s (T KComma Glued :: _) eq_refl) (IH Spaced rest))).
      intros f [H1 H2]. step. eapply hints_body_more; [apply print_hint_start|exact H1|exact H2].
Qed.

Lemma all_hints_ok h : hint_ok h.
Proof.
  induction h as [x args IH|items IH] using hint_ind'; intros s rest Hr.
  - destruct args as [|a l].
    + apply ev_S, ev_all. intros f. step.
      destruct rest as [|[k s0] r]; [reflexivity|]. destruct k; try reflexivity. destruct o; try reflexivity. discriminate.
    + change (print_hint s (HName x (a :: l))) with
        (T (KSym x) s :: T (KOp KLessThan) Glued :: commas_with print_hint Glued (a :: l) ++ [T (KOp KGreaterThan) Glued]).
      assoc. apply ev_S, (ev_mono (hints_ok true (a :: l) IH Glued rest)). intros f H1. cbn [close] in H1.
      step. cbn [hint_body]. now rewrite H1.
  - cbn [print_hint]. assoc. apply ev_S, (ev_mono (hints_ok false items IH Glued rest)). intros f H1. cbn [close] in H1.
    step. cbn [hint_body]. now rewrite H1.
Qed.

(* `: Hint` or nothing; what follows "nothing" must not look like a hint *)
Definition nohint_follow (ts : list tok) : bool :=
  match ts with T KColon _ :: _ | T (KSym _) _ :: _ | T KDictSym _ :: _ => false | _ => true end.

Lemma opt_hint_ok h rest : hint_follow rest = true -> nohint_follow rest = true ->
  eventually (fun f => opt_hint (R f) (print_opt_hint h ++ rest) = Some (h, rest)).
Proof.
  intros H1 H2. destruct h as [h|]; cbn [print_opt_hint app].
  - apply (ev_mono (all_hints_ok h Spaced rest H1)). intros f Hh. cbn [opt_hint]. now rewrite Hh.
  - apply ev_all. intros f. destruct rest as [|[k s] r]; [reflexivity|]. destruct k; try discriminate; reflexivity.
Qed.

Lemma block_follow b rest : stops (block_with print b ++ rest) = true /\ hint_follow (block_with print b ++ rest) = true
  /\ nohint_follow (block_with print b ++ rest) = true.
Proof. repeat split; reflexivity. Qed.

Lemma syms_ok l : forall s rest, eventually (fun f => p_syms (R f) (commas_with print_sym s l ++ T KRP Glued :: rest) = Some (l, rest)).
Proof.
  induction l as [|x l IH]; intros s rest.
  - apply ev_S, ev_all. intros f. step. reflexivity.
  - destruct l as [|y l'].
    + apply ev_S, ev_S, ev_all. intros f. step. cbn [commas_with print_sym app syms_body]. step. reflexivity.
    + rewrite commas_cons2. apply ev_S, (ev_mono (IH Spaced rest)). intros f H1. step. cbn [print_sym app syms_body]. now rewrite H1.
Qed.

Lemma dest_ok d : wf_dest d = true -> forall s rest, eventually (fun f => let_dest (R f) (print_dest s d ++ rest) = Some (d, rest)).
Proof.
  intros W s rest. destruct d as [x|xs]; cbn [print_dest].
  - apply ev_all. reflexivity.
  - assoc. apply (ev_mono (syms_ok xs Glued rest)). intros f H1. cbn [let_dest]. rewrite H1. cbn [wf_dest] in W. now rewrite W.
Qed.

Lemma dest_starts d s r : starts_ok (print_dest s d ++ r) = true.
Proof. destruct d; reflexivity. Qed.

Lemma params_ok l : forall s rest, eventually (fun f =>
  p_params (R f) (commas_with print_param s l ++ T KRP Glued :: rest) = Some (l, T KRP Glued :: rest)).
Proof.
  induction l as [|[x h] l IH]; intros s rest.
  - apply ev_S, ev_all. intros f. step. reflexivity.
  - destruct l as [|q l'].
    + rewrite commas_one. unfold print_param. cbn [fst snd]. assoc.
      apply ev_S, (ev_mono (opt_hint_ok h (T KRP Glued :: rest) eq_refl eq_refl)). intros f H1. step. cbn [params_body]. now rewrite H1.
    + rewrite commas_cons2. unfold print_param at 1. cbn [fst snd]. assoc.
      apply ev_S. eapply (ev_mono (ev_and (opt_hint_ok h (T KComma Glued :: _) eq_refl eq_refl) (IH Spaced rest))).
      intros f [H1 H2]. step. cbn [params_body]. now rewrite H1, H2.
Qed.

Lemma parameters_ok l : nodup (map fst l) = true -> forall rest,
  eventually (fun f => parameters (R f) (print_params l ++ rest) = Some (l, rest)).
Proof.
  intros W rest. unfold print_params. assoc. apply (ev_mono (params_ok l Glued rest)). intros f H1. cbn [parameters]. now rewrite H1, W.
Qed.

Definition case_good (c : case) : Prop :=
  match c with (_, pay, b) => wf_opt_dest pay = true /\ Forall stmt_ok b end.

Definition print_payload (pay : option dest) : list tok :=
  match pay with Some d => T KLP Glued :: print_dest Glued d ++ [T KRP Glued] | None => [] end.

Lemma pattern_ok v pay s rest : wf_opt_dest pay = true -> eventually (fun f =>
  pattern_ (R f) (T (KSym v) s :: print_payload pay ++ T KArrow Spaced :: rest) = Some (v, pay, T KArrow Spaced :: rest)).
Proof.
  intros W. destruct pay as [d|]; cbn [print_payload].
  - assoc. apply (ev_mono (dest_ok d W Glued (T KRP Glued :: T KArrow Spaced :: rest))). intros f H1. cbn [pattern_]. now rewrite H1.
  - apply ev_all. reflexivity.
Qed.

Definition not_comma (ts : list tok) : bool := match ts with T KComma _ :: _ => false | _ => true end.

Lemma case_block_block rec ts b r : block_ rec ts = Some (b, r) -> not_comma r = true -> case_block rec ts = Some (b, r).
Proof.
  intros H1 Hr. destruct ts as [|[k s] ts]; [discriminate|]. destruct k; try discriminate.
  unfold case_block. rewrite H1. destruct r as [|[k s0] r]; [reflexivity|]. destruct k; try reflexivity. discriminate.
Qed.

Lemma case_block_ok b rest : Forall stmt_ok b -> not_comma rest = true ->
  eventually (fun f => case_block (R f) (block_with print b ++ rest) = Some (b, rest)).
Proof.
  intros Hb Hr. apply (ev_mono (block_ok b Hb rest)). intros f H1. now apply case_block_block.
Qed.

Lemma print_case_eq v pay b : print_case (v, pay, b) = T (KSym v) Spaced :: print_payload pay ++ T KArrow Spaced :: block_with print b.
Proof. destruct pay; reflexivity. Qed.

Lemma cases_ok cases : Forall case_good cases -> forall rest, eventually (fun f =>
  p_cases (R f) (flat_map print_case cases ++ T KRC Spaced :: rest) = Some (cases, T KRC Spaced :: rest)).
Proof.
  induction 1 as [|[[v pay] b] l [Wp Hb] _ IH]; intros rest.
  - apply ev_S, ev_all. intros f. step. reflexivity.
  - cbn [flat_map]. rewrite print_case_eq. assoc. apply ev_S.
    refine (ev_mono (ev_and (pattern_ok v pay Spaced _ Wp)
             (ev_and (case_block_ok b (flat_map print_case l ++ T KRC Spaced :: rest) Hb _) (IH rest))) _).
    { destruct l as [|[[v' p'] b'] l']; reflexivity. }
    intros f (H1 & H2 & H3). step. cbn [cases_body]. now rewrite H1, H2, H3.
Qed.

Lemma no_trailing_skip rec t ts : not_assign ts = true -> no_trailing rec (t :: ts) = keyword_expr rec (t :: ts).
Proof. destruct ts as [|[k s] r]; [reflexivity|]. destruct k; try discriminate; reflexivity. Qed.

Lemma no_trailing_expr rec t s e r : no_trailing rec (t :: print s e ++ r) = keyword_expr rec (t :: print s e ++ r).
Proof. apply no_trailing_skip, starts_not_assign, print_starts. Qed.

Lemma var_simple rec x s rest : hfollow rest = true -> keyword_expr rec (T (KSym x) s :: rest) = Some (EVar x, rest).
Proof.
  destruct rest as [|[k s0] r]; [reflexivity|]. destruct k; try reflexivity. destruct s0; try reflexivity. discriminate.
Qed.

Lemma paren_rule rec s r e s' r1 : starts_ok r = true -> p_expr rec true r = Some (e, T KRP s' :: r1) ->
  no_trailing rec (T KLP s :: r) = Some (EParen e, r1).
Proof.
  intros Hs H1. rewrite no_trailing_skip by now apply starts_not_assign.
  destruct r as [|[k s0] r]; [discriminate|].
  destruct k; try discriminate; cbn [keyword_expr simple tuple_or_paren]; now rewrite H1.
Qed.

Lemma tuple_rule rec s r e s0 r1 l s' r2 : starts_ok r = true -> p_expr rec true r = Some (e, T KComma s0 :: r1) ->
  p_tuple rec (T KComma s0 :: r1) = Some (l, T KRP s' :: r2) -> no_trailing rec (T KLP s :: r) = Some (ETuple (e :: l), r2).
Proof.
  intros Hs H1 H2. rewrite no_trailing_skip by now apply starts_not_assign.
  destruct r as [|[k s1] r]; [discriminate|].
  destruct k; try discriminate; cbn [keyword_expr simple tuple_or_paren]; now rewrite H1, H2.
Qed.

Lemma assert_rule rec s s1 r e s' r' : starts_ok r = true -> p_expr rec true r = Some (e, T KRP s' :: r') ->
  no_trailing rec (T (KKw Wassert) s :: T KLP s1 :: r) = Some (EAssert e, r').
Proof.
  intros Hs H1. destruct r as [|[k s0] r]; [discriminate|].
  destruct k; try discriminate; cbn [no_trailing keyword_expr simple]; now rewrite H1.
Qed.

Lemma lambda_next rec s ps r : keyword_expr rec (T (KKw Wfun) s :: print_params ps ++ r) = lambda rec (T (KKw Wfun) s :: print_params ps ++ r).
Proof. reflexivity. Qed.

Lemma return_next rec s k tl :
  keyword_expr rec (T (KKw Wreturn) s :: T k Spaced :: tl) =
  match p_expr rec true (T k Spaced :: tl) with Some (e, r1) => Some (EReturn (Some e), r1) | None => None end.
Proof. reflexivity. Qed.

Lemma return_bare rec s rest : stops_nl rest = true -> keyword_expr rec (T (KKw Wreturn) s :: rest) = Some (EReturn None, rest).
Proof.
  intros H. destruct rest as [|[k s0] r]; [reflexivity|]. apply andb_true_iff in H as [_ Hnl].
  destruct s0; try discriminate Hnl. reflexivity.
Qed.

Lemma not_else_match {A} (ts : list tok) (f1 : sp -> sp -> list tok -> A) (f2 : sp -> list tok -> A) (d : A) :
  hfollow ts = true ->
  match ts with
  | T (KKw Welse) s1 :: T (KKw Wif) s2 :: r2 => f1 s1 s2 r2
  | T (KKw Welse) s1 :: r2 => f2 s1 r2
  | _ => d
  end = d.
Proof.
  destruct ts as [|[k s] r]; [reflexivity|]. destruct k; try reflexivity. destruct w; try reflexivity. discriminate.
Qed.

Lemma if_body_else rec s r c r1 t s1 r2 el r3 : p_expr rec true r = Some (c, r1) ->
  block_ rec r1 = Some (t, T (KKw Welse) s1 :: r2) -> block_ rec r2 = Some (el, r3) ->
  if_body rec (T (KKw Wif) s :: r) = Some (EIf c t (Some el), r3).
Proof.
  intros H1 H2 H3. destruct r2 as [|[k s2] r2]; [discriminate|]. destruct k; try discriminate.
  cbn [if_body]. now rewrite H1, H2, H3.
Qed.

Lemma if_body_noelse rec s r c r1 t r2 : p_expr rec true r = Some (c, r1) -> block_ rec r1 = Some (t, r2) ->
  hfollow r2 = true -> if_body rec (T (KKw Wif) s :: r) = Some (EIf c t None, r2).
Proof.
  intros H1 H2 Hr. cbn [if_body]. rewrite H1, H2. cbv beta iota. now apply not_else_match.
Qed.

(* A head is what parse_expression_no_trailing reads.  `after` is the condition on what follows: hfollow for the
   forms that are expressions, stops_nl for `let`, assignments and `return`, which end a statement. *)
Definition head_ok (after : list tok -> bool) (x : expr) : Prop :=
  forall s rest, after rest = true -> eventually (fun f => no_trailing (R f) (print s x ++ rest) = Some (x, rest)).

Lemma token_ok k x : (forall s, print s x = [T k s]) ->
  (forall rec s rest, hfollow rest = true -> keyword_expr rec (T k s :: rest) = Some (x, rest)) -> head_ok hfollow x.
Proof.
  intros Hp Hk s rest Hr. apply ev_all. intros f. rewrite Hp. cbn [app].
  rewrite no_trailing_skip by now apply hfollow_not_assign. now apply Hk.
Qed.

Lemma paren_ok e : ok_expr true e -> head_ok hfollow (EParen e).
Proof.
  intros He s rest _. cbn [print]. assoc. apply (ev_mono (He Glued (T KRP Glued :: rest) eq_refl)). intros f H1.
  eapply paren_rule; [apply print_starts|exact H1].
Qed.

Lemma tuple_head_ok items : Forall (ok_expr true) items -> head_ok hfollow (ETuple items).
Proof.
  intros Hit s rest _. destruct Hit as [|a l Ha Hl]; [|destruct l as [|b l]].
  - apply ev_all. reflexivity.
  - cbn [print]. assoc. apply ev_S, (ev_mono (ev_shift _ (Ha Glued (T KComma Glued :: T KRP Glued :: rest) eq_refl))). intros f H1.
    eapply tuple_rule; [apply print_starts|exact H1|]. step. reflexivity.
  - change (print s (ETuple (a :: b :: l))) with (T KLP s :: commas_with print Glued (a :: b :: l) ++ [T KRP Glued]).
    rewrite commas_cons2. assoc.
    eapply (ev_mono (ev_and (Ha Glued (T KComma Glued :: _) eq_refl) (tuple_ok (b :: l) Hl rest))).
    intros f [H1 H2]. eapply tuple_rule; [apply print_starts|exact H1|exact H2].
Qed.

Lemma list_not_assign l r : not_assign (commas_with print Glued l ++ T KRB Glued :: r) = true.
Proof.
  destruct l as [|a [|b l']]; [reflexivity| |].
  - rewrite commas_one. apply starts_not_assign, print_starts.
  - rewrite commas_cons2, <- app_assoc. apply starts_not_assign, print_starts.
Qed.

Lemma list_ok items : Forall (ok_expr true) items -> head_ok hfollow (EList items).
Proof.
  intros Hit s rest _. cbn [print]. assoc. apply (ev_mono (exprs_ok true items Hit Glued rest)). intros f H1. cbn [term] in H1.
  rewrite no_trailing_skip by apply list_not_assign.
  cbn [keyword_expr simple]. now rewrite H1.
Qed.

Lemma funlit_ok ps ret body : nodup (map fst ps) = true -> Forall stmt_ok body -> head_ok hfollow (EFunLit ps ret body).
Proof.
  intros W Hb s rest _. cbn [print]. assoc.
  apply (ev_mono (ev_and (parameters_ok ps W (print_opt_hint ret ++ block_with print body ++ rest))
          (ev_and (opt_hint_ok ret (block_with print body ++ rest) eq_refl eq_refl) (block_ok body Hb rest)))).
  intros f (H1 & H2 & H3). rewrite no_trailing_skip by reflexivity. rewrite lambda_next. cbn [lambda]. now rewrite H1, H2, H3.
Qed.

Lemma assert_ok e : ok_expr true e -> head_ok hfollow (EAssert e).
Proof.
  intros He s rest _. cbn [print]. assoc. apply (ev_mono (He Glued (T KRP Glued :: rest) eq_refl)). intros f H1.
  eapply assert_rule; [apply print_starts|exact H1].
Qed.

Lemma if_ok c t el : ok_expr true c -> Forall stmt_ok t -> (forall b, el = Some b -> Forall stmt_ok b) ->
  head_ok hfollow (EIf c t el).
Proof.
  intros Hc Ht Hel s rest Hr. cbn [print]. destruct el as [b|]; assoc.
  - apply (ev_mono (ev_and (Hc Spaced (block_with print t ++ T (KKw Welse) Spaced :: block_with print b ++ rest) eq_refl)
            (ev_and (block_ok t Ht (T (KKw Welse) Spaced :: block_with print b ++ rest)) (block_ok b (Hel b eq_refl) rest)))).
    intros f (H1 & H2 & H3). rewrite no_trailing_expr. cbn [keyword_expr]. eapply if_body_else; [exact H1|exact H2|exact H3].
  - apply (ev_mono (ev_and (Hc Spaced (block_with print t ++ rest) eq_refl) (block_ok t Ht rest))).
    intros f [H1 H2]. rewrite no_trailing_expr. cbn [keyword_expr]. eapply if_body_noelse; [exact H1|exact H2|exact Hr].
Qed.

Lemma while_ok c b : ok_expr true c -> Forall stmt_ok b -> head_ok hfollow (EWhile c b).
Proof.
  intros Hc Hb s rest _. cbn [print]. assoc.
  apply (ev_mono (ev_and (Hc Spaced (block_with print b ++ rest) eq_refl) (block_ok b Hb rest))).
  intros f [H1 H2]. rewrite no_trailing_expr. cbn [keyword_expr]. now rewrite H1, H2.
Qed.

Lemma for_ok d e b : wf_dest d = true -> ok_expr true e -> Forall stmt_ok b -> head_ok hfollow (EFor d e b).
Proof.
  intros W He Hb s rest _. cbn [print]. assoc.
  apply (ev_mono (ev_and (dest_ok d W Spaced (T (KKw Win) Spaced :: print Spaced e ++ block_with print b ++ rest))
          (ev_and (He Spaced (block_with print b ++ rest) eq_refl) (block_ok b Hb rest)))).
  intros f (H0 & H1 & H2). rewrite no_trailing_skip by apply starts_not_assign, dest_starts.
  cbn [keyword_expr]. now rewrite H0, H1, H2.
Qed.

Lemma match_ok e cases : ok_expr true e -> Forall case_good cases -> head_ok hfollow (EMatch e cases).
Proof.
  intros He Hc s rest _.
  change (print s (EMatch e cases))
    with (T (KKw Wmatch) s :: print Spaced e ++ T KLC Spaced :: flat_map print_case cases ++ [T KRC Spaced]).
  assoc. eapply (ev_mono (ev_and (He Spaced (T KLC Spaced :: _) eq_refl) (cases_ok cases Hc rest))).
  intros f [H1 H2]. rewrite no_trailing_expr. cbn [keyword_expr]. now rewrite H1, H2.
Qed.

Lemma let_ok d h e : wf_dest d = true -> ok_expr true e -> head_ok stops_nl (ELet d h e).
Proof.
  intros W He s rest Hr. cbn [print]. assoc.
  apply (ev_mono (ev_and (dest_ok d W Spaced (print_opt_hint h ++ T KEq Spaced :: print Spaced e ++ rest))
          (ev_and (opt_hint_ok h (T KEq Spaced :: print Spaced e ++ rest) eq_refl eq_refl)
                  (He Spaced rest (stops_nl_stops rest Hr))))).
  intros f (H0 & H1 & H2). rewrite no_trailing_skip by apply starts_not_assign, dest_starts.
  cbn [keyword_expr]. now rewrite H0, H1, H2.
Qed.

Lemma assign_ok x e : ok_expr true e -> head_ok stops_nl (EAssign x e).
Proof.
  intros He s rest Hr. apply (ev_mono (He Spaced rest (stops_nl_stops rest Hr))). intros f H2.
  cbn [print app no_trailing]. now rewrite H2.
Qed.

Lemma update_ok plus x e : ok_expr true e -> head_ok stops_nl (EAssignUpdate plus x e).
Proof.
  intros He s rest Hr. apply (ev_mono (He Spaced rest (stops_nl_stops rest Hr))). intros f H2.
  destruct plus; cbn [print app no_trailing]; now rewrite H2.
Qed.

Lemma return_ok e : (forall e', e = Some e' -> ok_expr true e') -> head_ok stops_nl (EReturn e).
Proof.
  intros He s rest Hr. pose proof (stops_nl_stops rest Hr) as Hst. destruct e as [e|]; cbn [print app].
  - apply (ev_mono (He e eq_refl Spaced rest Hst)). intros f H2. rewrite no_trailing_expr.
    destruct (print_first e Spaced) as (k & tl & E & _). rewrite E in *. cbn [app] in *. now rewrite return_next, H2.
  - apply ev_all. intros f.
    rewrite no_trailing_skip by (apply hfollow_not_assign, boundary_hfollow, stops_boundary, Hst). now apply return_bare.
Qed.

(* The invariant of the trailing loop: reading the text of e and going on with what follows is entering the loop
   with e as the expression so far.  (With the flag off the loop does not take operators, so e is not an operator
   application.) *)
Definition then_loop (e : expr) : Prop :=
  forall allow s rest v, (allow = false -> negb (is_bin e) = true) -> fits e rest = true ->
  eventually (fun f => p_loop (R f) allow e rest = Some v) -> eventually (fun f => p_expr (R f) allow (print s e ++ rest) = Some v).

Lemma expr_of_head f allow ts x r :
  no_trailing (R f) ts = Some (x, r) -> p_expr (R (S f)) allow ts = p_loop (R f) allow x r.
Proof. intros H. step. unfold expr_body. now rewrite H. Qed.

Lemma loop_body_stop rec allow e ts : follow allow ts = true -> loop_body good_shape true rec allow e ts = Some (e, ts).
Proof.
  destruct ts as [|[k s] r]; [reflexivity|].
  destruct allow, k; try discriminate; try reflexivity; destruct s; try discriminate; reflexivity.
Qed.

Lemma loop_stop f allow e ts : follow allow ts = true -> p_loop (R (S f)) allow e ts = Some (e, ts).
Proof. intros H. step. now apply loop_body_stop. Qed.

Lemma then_loop_ok e allow : then_loop e -> (allow = false -> negb (is_bin e) = true) -> ok_expr allow e.
Proof.
  intros H Hb s rest Hr. apply H; [assumption|apply boundary_fits, (follow_boundary allow), Hr|].
  apply ev_S, ev_all. intros f. now apply loop_stop.
Qed.

Lemma head_then_loop x : head_ok hfollow x -> then_loop x.
Proof.
  intros Hx allow s rest v _ Hf Hl. apply ev_S, (ev_mono (ev_and (Hx s rest (fits_hfollow x rest Hf)) Hl)).
  intros f [H1 H2]. now rewrite (expr_of_head f allow _ _ _ H1).
Qed.

Lemma open_stmt_ok x : head_ok stops_nl x -> stmt_ok x.
Proof.
  intros Hx s rest Hr. apply ev_S, ev_S, (ev_mono (ev_shift _ (Hx s rest Hr))). intros f H1.
  rewrite (expr_of_head _ true _ _ _ H1). apply loop_stop. now apply stops_nl_stops.
Qed.

Lemma call_then_loop c args : then_loop c -> negb (is_bin c) = true -> negb (is_dot c) = true ->
  Forall (ok_expr true) args -> then_loop (ECall c args).
Proof.
  intros Hc Bc Dc Ha allow s rest v _ _ Hl. cbn [print]. assoc.
  apply Hc; [trivial|cbn [fits]; now rewrite Bc, Dc|].
  apply ev_S, (ev_mono (ev_and (exprs_ok false args Ha Glued rest) Hl)). intros f [H1 H2]. cbn [term] in H1.
  step. cbn [loop_body call_args]. now rewrite H1.
Qed.

Lemma method_then_loop r m args : then_loop r -> negb (is_bin r) = true ->
  Forall (ok_expr true) args -> then_loop (EMethod r m args).
Proof.
  intros Hc Bc Ha allow s rest v _ _ Hl. cbn [print]. assoc. apply Hc; [trivial|exact Bc|].
  apply ev_S, (ev_mono (ev_and (exprs_ok false args Ha Glued rest) Hl)). intros f [H1 H2]. cbn [term] in H1.
  step. cbn [loop_body call_args negb orb is_glued]. now rewrite H1.
Qed.

(* `x.name` followed by a touching `(` is a method call: that text is not in the domain as a call of a field access *)
Lemma dot_then_loop r x : then_loop r -> negb (is_bin r) = true -> then_loop (EDot r x).
Proof.
  intros Hc Bc allow s rest v _ Hf Hl. cbn [print]. assoc. apply Hc; [trivial|exact Bc|].
  apply ev_S, (ev_mono Hl). intros f H. step. cbn [loop_body]. rewrite <- H.
  destruct rest as [|[k s0] r0]; [reflexivity|]. destruct k; try reflexivity. destruct s0; try discriminate; reflexivity.
Qed.

(* the right operand is read with the flag off, so it ends before the next operator *)
Lemma bin_then_loop o l r : then_loop l -> ok_expr false r -> then_loop (EBin o l r).
Proof.
  intros Hc Hr allow s rest v Hb Hf Hl. destruct allow; [|discriminate (Hb eq_refl)].
  cbn [print]. assoc. apply Hc; [discriminate|reflexivity|].
  apply ev_S, (ev_mono (ev_and (Hr Spaced rest (fits_bin (EBin o l r) rest eq_refl Hf)) Hl)). intros f [H1 H2].
  step. cbn [loop_body orb negb good_shape rhs_stops_at_operators guarded_by_flag rotates_once]. now rewrite H1.
Qed.

Definition IHP (N : nat) : Prop :=
  forall e, size e < N -> (wf false e = true -> then_loop e) /\ (wf true e = true -> stmt_ok e).

Lemma IH_expr N (IH : IHP N) e : size e < N -> wf false e = true -> ok_expr true e.
Proof. intros Hs W. apply then_loop_ok; [now apply (IH e)|discriminate]. Qed.

Lemma list_sum_cons a l : list_sum (a :: l) = a + list_sum l.
Proof. reflexivity. Qed.

Lemma size_in a l : In a l -> size a <= list_sum (map size l).
Proof.
  induction l as [|b l IH]; [contradiction|]. cbn [map]. rewrite list_sum_cons. intros [->|H]; [lia|]. specialize (IH H). lia.
Qed.

Lemma IH_list (Q : expr -> Prop) w N l : (forall a, size a < N -> w a = true -> Q a) ->
  list_sum (map size l) < N -> forallb w l = true -> Forall Q l.
Proof.
  intros HQ Hs W. apply Forall_forall. intros a Ha. rewrite forallb_forall in W.
  apply HQ; [pose proof (size_in a l Ha); lia|auto].
Qed.

Lemma IH_exprs N (IH : IHP N) l : list_sum (map size l) < N -> forallb (wf false) l = true -> Forall (ok_expr true) l.
Proof. apply IH_list, (IH_expr N IH). Qed.
Lemma IH_stmts N (IH : IHP N) l : list_sum (map size l) < N -> forallb (wf true) l = true -> Forall stmt_ok l.
Proof. apply IH_list. intros a Hs. now apply (IH a). Qed.

Lemma IH_cases N (IH : IHP N) (cases : list case) :
  list_sum (map (fun c : case => match c with (_, _, b) => S (list_sum (map size b)) end) cases) < N ->
  forallb (fun c : case => match c with (_, pay, b) => wf_opt_dest pay && forallb (wf true) b end) cases = true ->
  Forall case_good cases.
Proof.
  induction cases as [|[[v pay] b] l IHl]; intros Hs W; constructor;
    cbn [forallb] in W; split_wf W; cbn [map] in Hs; rewrite list_sum_cons in Hs.
  - split; [assumption|]. apply (IH_stmts N IH); [lia|assumption].
  - apply IHl; [lia|assumption].
Qed.

Definition open_form (e : expr) : bool :=
  match e with ELet _ _ _ | EAssign _ _ | EAssignUpdate _ _ _ | EReturn _ => true | _ => false end.

Definition is_head (e : expr) : bool :=
  match e with EBin _ _ _ | ECall _ _ | EMethod _ _ _ | EDot _ _ => false | _ => true end.

Lemma closed_wf e : open_form e = false -> wf true e = wf false e.
Proof. destruct e; try discriminate; reflexivity. Qed.

Lemma open_is_head e : open_form e = true -> is_head e = true.
Proof. destruct e; try discriminate; reflexivity. Qed.

Lemma head_closed N (IH : IHP N) x : size x <= N -> wf false x = true -> is_head x = true -> head_ok hfollow x.
Proof.
  intros Hs W Hx. destruct x; try discriminate; cbn [wf] in W; cbn [size] in Hs; split_wf W.
  - apply (token_ok (KInt z)); reflexivity.
  - apply (token_ok (KFloat x)); reflexivity.
  - apply (token_ok (KStr x)); reflexivity.
  - apply (token_ok (KSym x)); [reflexivity|intros rec; apply var_simple].
  - apply paren_ok, (IH_expr N IH); [lia|assumption].
  - apply tuple_head_ok, (IH_exprs N IH); [lia|assumption].
  - apply list_ok, (IH_exprs N IH); [lia|assumption].
  - apply funlit_ok; [assumption|apply (IH_stmts N IH); [lia|assumption]].
  - apply assert_ok, (IH_expr N IH); [lia|assumption].
  - apply if_ok; [apply (IH_expr N IH); [lia|assumption]|apply (IH_stmts N IH); [lia|assumption]|].
    intros b ->. apply (IH_stmts N IH); [lia|assumption].
  - apply while_ok; [apply (IH_expr N IH); [lia|assumption]|apply (IH_stmts N IH); [lia|assumption]].
  - apply for_ok; [assumption|apply (IH_expr N IH); [lia|assumption]|apply (IH_stmts N IH); [lia|assumption]].
  - apply (token_ok (KKw Wbreak)); reflexivity.
  - apply (token_ok (KKw Wcontinue)); reflexivity.
  - destruct e; discriminate.
  - apply match_ok; [apply (IH_expr N IH); [lia|assumption]|apply (IH_cases N IH); [lia|assumption]].
Qed.

Lemma head_open N (IH : IHP N) x : size x <= N -> wf true x = true -> open_form x = true -> head_ok stops_nl x.
Proof.
  intros Hs W Hx. destruct x; try discriminate; cbn [wf andb] in W; cbn [size] in Hs.
  - split_wf W. apply let_ok; [assumption|apply (IH_expr N IH); [lia|assumption]].
  - apply assign_ok, (IH_expr N IH); [lia|assumption].
  - apply update_ok, (IH_expr N IH); [lia|assumption].
  - apply return_ok. intros e' ->. apply (IH_expr N IH); [lia|assumption].
Qed.

Theorem roundtrip_all N : IHP N.
Proof.
  induction N as [|N IHN]; intros e He; [lia|].
  assert (HL : wf false e = true -> then_loop e).
  { intros W. destruct (is_head e) eqn:Hx; [apply head_then_loop, (head_closed N IHN); (lia || assumption)|].
    destruct e; try discriminate Hx; cbn [wf] in W; split_wf W; cbn [size] in He.
    - apply bin_then_loop; [apply (IHN e1); [lia|assumption]|].
      apply then_loop_ok; [apply (IHN e2); [lia|assumption]|trivial].
    - apply call_then_loop; [apply (IHN e); [lia|assumption]|assumption|assumption|apply (IH_exprs N IHN); [lia|assumption]].
    - apply method_then_loop; [apply (IHN e); [lia|assumption]|assumption|apply (IH_exprs N IHN); [lia|assumption]].
    - apply dot_then_loop; [apply (IHN e); [lia|assumption]|assumption]. }
  split; [exact HL|].
  intros W. destruct (open_form e) eqn:O.
  - apply open_stmt_ok, (head_open N IHN); (lia || assumption).
  - rewrite (closed_wf e O) in W. apply expr_stmt_ok, then_loop_ok; [now apply HL|discriminate].
Qed.

Corollary stmt_roundtrip e : wf true e = true -> stmt_ok e.
Proof. intros W. apply (roundtrip_all (S (size e)) e (le_n _)). exact W. Qed.
Corollary expr_roundtrip e : wf false e = true -> ok_expr true e.
Proof. intros W. apply (IH_expr _ (roundtrip_all (S (size e))) e (le_n _) W). Qed.

Lemma block_roundtrip b : forallb (wf true) b = true -> eventually (fun f => block_ (R f) (print_block b) = Some (b, [])).
Proof.
  intros W. unfold print_block. rewrite <- (app_nil_r (block_with print b)). apply block_ok.
  apply Forall_forall. intros a Ha. rewrite forallb_forall in W. apply stmt_roundtrip. auto.
Qed.

Lemma tparams_loop_ok l : forall s rest, eventually (fun f =>
  tparams_loop f (commas_with print_sym s l ++ T (KOp KGreaterThan) Glued :: rest) = Some (l, T (KOp KGreaterThan) Glued :: rest)).
Proof.
  induction l as [|x l IH]; intros s rest.
  - apply ev_S, ev_all. reflexivity.
  - destruct l as [|y l'].
    + apply ev_S, ev_all. reflexivity.
    + rewrite commas_cons2. apply ev_S, (ev_mono (IH Spaced rest)). intros f H1. cbn [print_sym app tparams_loop]. now rewrite H1.
Qed.

Lemma type_params_ok tps rest : hint_follow rest = true -> eventually (fun f => type_params f (print_tparams tps ++ rest) = Some (tps, rest)).
Proof.
  intros Hr. destruct tps as [|x l]; cbn [print_tparams].
  - apply ev_all. intros f. destruct rest as [|[k s] r]; [reflexivity|].
    destruct k; try reflexivity. destruct o; try reflexivity. discriminate.
  - assoc. apply (ev_mono (tparams_loop_ok (x :: l) Glued rest)). intros f H1. cbn [type_params]. now rewrite H1.
Qed.

Definition not_lp (ts : list tok) : bool := match ts with T KLP _ :: _ => false | _ => true end.

Lemma variant_ok v s rest : not_lp rest = true -> eventually (fun f => variant_ (R f) (print_variant s v ++ rest) = Some (v, rest)).
Proof.
  intros Hr. destruct v as [x [h|]]; unfold print_variant; cbn [fst snd].
  - assoc. apply (ev_mono (all_hints_ok h Glued (T KRP Glued :: rest) eq_refl)). intros f H1. cbn [variant_]. now rewrite H1.
  - apply ev_all. intros f. cbn [app]. destruct rest as [|[k s0] r]; [reflexivity|]. destruct k; try reflexivity. discriminate.
Qed.

Lemma variants_next rec f v s tl : variants_loop rec (S f) (print_variant s v ++ tl) =
  match variant_ rec (print_variant s v ++ tl) with
  | Some (v, T KComma _ :: r3) =>
      match r3 with
      | [] => None
      | _ => match variants_loop rec f r3 with Some (l, r') => Some (v :: l, r') | None => None end
      end
  | Some (v, T KRC s :: r3) => Some ([v], T KRC s :: r3)
  | _ => None
  end.
Proof. reflexivity. Qed.

(* the loops of a definition have a fuel of their own, which only has to exceed the length of the list *)
Lemma variants_ok l : forall s rest, eventually (fun f => forall fuel, length l < fuel ->
  variants_loop (R f) fuel (commas_with print_variant s l ++ T KRC Spaced :: rest) = Some (l, T KRC Spaced :: rest)).
Proof.
  induction l as [|v l IH]; intros s rest.
  - apply ev_all. intros f [|fuel] Hfuel; [inversion Hfuel|]. reflexivity.
  - destruct l as [|q l'].
    + rewrite commas_one. apply (ev_mono (variant_ok v s (T KRC Spaced :: rest) eq_refl)).
      intros f H1 [|fuel] Hfuel; [inversion Hfuel|]. now rewrite variants_next, H1.
    + rewrite commas_cons2. assoc. eapply (ev_mono (ev_and (variant_ok v s (T KComma Glued :: _) eq_refl) (IH Spaced rest))).
      intros f [H1 H2] [|fuel] Hfuel; [inversion Hfuel|]. rewrite variants_next, H1, H2 by now apply Nat.succ_lt_mono.
      destruct l' as [|q' l'']; [rewrite commas_one|rewrite commas_cons2]; unfold print_variant at 1; reflexivity.
Qed.

Lemma field_ok v s rest : hint_follow rest = true -> eventually (fun f => field_ (R f) (print_field s v ++ rest) = Some (v, rest)).
Proof.
  intros Hr. destruct v as [x h]; unfold print_field; cbn [fst snd app].
  apply (ev_mono (all_hints_ok h Spaced rest Hr)). intros f H1. cbn [field_]. now rewrite H1.
Qed.

Lemma fields_next rec f v s tl : fields_loop rec (S f) (print_field s v ++ tl) =
  match field_ rec (print_field s v ++ tl) with
  | Some (v, T KComma _ :: r1) =>
      match fields_loop rec f r1 with Some (l, r') => Some (v :: l, r') | None => None end
  | Some (v, T KRC s :: r1) => Some ([v], T KRC s :: r1)
  | _ => None
  end.
Proof. reflexivity. Qed.

Lemma fields_ok l : forall s rest, eventually (fun f => forall fuel, length l < fuel ->
  fields_loop (R f) fuel (commas_with print_field s l ++ T KRC Spaced :: rest) = Some (l, T KRC Spaced :: rest)).
Proof.
  induction l as [|v l IH]; intros s rest.
  - apply ev_all. intros f [|fuel] Hfuel; [inversion Hfuel|]. reflexivity.
  - destruct l as [|q l'].
    + rewrite commas_one. apply (ev_mono (field_ok v s (T KRC Spaced :: rest) eq_refl)).
      intros f H1 [|fuel] Hfuel; [inversion Hfuel|]. now rewrite fields_next, H1.
    + rewrite commas_cons2. assoc. eapply (ev_mono (ev_and (field_ok v s (T KComma Glued :: _) eq_refl) (IH Spaced rest))).
      intros f [H1 H2] [|fuel] Hfuel; [inversion Hfuel|]. now rewrite fields_next, H1, H2 by now apply Nat.succ_lt_mono.
Qed.

Lemma item_fun rec fuel pub name s r :
  item_body rec fuel (print_pub pub Wfun ++ T (KSym name) s :: r) = function_ rec fuel pub (T (KSym name) s :: r).
Proof. destruct pub; reflexivity. Qed.
Lemma item_method rec fuel pub name s r :
  item_body rec fuel (print_pub pub Wmethod ++ T (KSym name) s :: r) = method_ rec fuel pub (T (KSym name) s :: r).
Proof. destruct pub; reflexivity. Qed.
Lemma item_enum rec fuel pub name s r :
  item_body rec fuel (print_pub pub Wenum ++ T (KSym name) s :: r) = enum_ rec fuel pub (T (KSym name) s :: r).
Proof. destruct pub; reflexivity. Qed.
Lemma item_struct rec fuel pub name s r :
  item_body rec fuel (print_pub pub Wstruct ++ T (KSym name) s :: r) = struct_ rec fuel pub (T (KSym name) s :: r).
Proof. destruct pub; reflexivity. Qed.

Lemma item_test rec fuel s name s' r b r' : block_ rec r = Some (b, r') ->
  item_body rec fuel (T (KKw Wtest) s :: T (KSym name) s' :: r) = Some (ITest name b, r').
Proof.
  intros H. destruct r as [|[k s0] r]; [discriminate|]. destruct k; try discriminate. cbn [item_body]. now rewrite H.
Qed.

Lemma item_block rec fuel ts b r : block_ rec ts = Some (b, r) -> item_body rec fuel ts = Some (IBlock b, r).
Proof.
  intros H. destruct ts as [|[k s] ts]; [discriminate|]. destruct k; try discriminate. cbn [item_body]. now rewrite H.
Qed.

Lemma item_expr rec fuel k s tl : first_ok k = true -> k <> KKw Wfun ->
  item_body rec fuel (T k s :: tl) = match p_expr rec true (T k s :: tl) with Some (e, r) => Some (IExpr e, r) | None => None end.
Proof.
  intros Hk Hf. destruct k; try discriminate; try reflexivity. destruct w; try discriminate; try reflexivity. congruence.
Qed.

Lemma signature_ok tps ps ret b : nodup (map fst ps) = true -> forallb (wf true) b = true ->
  eventually (fun f =>
    type_params f (print_tparams tps ++ print_params ps ++ print_opt_hint ret ++ print_block b)
      = Some (tps, print_params ps ++ print_opt_hint ret ++ print_block b) /\
    parameters (R f) (print_params ps ++ print_opt_hint ret ++ print_block b) = Some (ps, print_opt_hint ret ++ print_block b) /\
    opt_hint (R f) (print_opt_hint ret ++ print_block b) = Some (ret, print_block b) /\
    block_ (R f) (print_block b) = Some (b, [])).
Proof.
  intros Wp Wb.
  repeat apply ev_and; [now apply type_params_ok|now apply parameters_ok|now apply opt_hint_ok|now apply block_roundtrip].
Qed.

(* C33: printing a definition / toplevel expression / toplevel block and parsing it gives the same tree *)
Theorem parse_print_full t : wf_item t = true ->
  exists f0, forall f, f0 <= f -> parse_item good_shape true f (print_item t) = Some (t, []).
Proof.
  intros W. unfold parse_item. destruct t; cbn [wf_item] in W; cbn [print_item].
  - apply andb_true_iff in W as [Wp Wb]. apply (ev_mono (signature_ok tparams params ret body Wp Wb)).
    intros f (H0 & H1 & H2 & H3). rewrite item_fun. cbn [function_]. now rewrite H0, H1, H2, H3.
  - apply andb_true_iff in W as [Wp Wb]. apply (ev_mono (signature_ok tparams ((recv, recv_hint) :: params) ret body Wp Wb)).
    intros f (H0 & H1 & H2 & H3). rewrite item_method. cbn [method_]. now rewrite H0, H1, H2, H3.
  - apply (ev_mono (block_roundtrip body W)). intros f H. now apply item_test.
  - eapply (ev_mono (ev_and (type_params_ok tparams (T KLC Spaced :: _) eq_refl)
             (ev_and (variants_ok variants Spaced []) (ev_ge (length variants))))).
    intros f (H0 & H1 & Hf). rewrite item_enum. cbn [enum_]. now rewrite H0, H1.
  - eapply (ev_mono (ev_and (type_params_ok tparams (T KLC Spaced :: _) eq_refl)
             (ev_and (fields_ok fields Spaced []) (ev_ge (length fields))))).
    intros f (H0 & H1 & Hf). rewrite item_struct. cbn [struct_]. now rewrite H0, H1.
  - apply ev_all. intros f. destruct ns; reflexivity.
  - apply andb_true_iff in W as [We Wf]. apply negb_true_iff in Wf.
    pose proof (stmt_roundtrip e We Spaced [] eq_refl) as H0. rewrite app_nil_r in H0. apply (ev_mono H0). intros f H.
    destruct (print_first e Spaced) as (k & tl & E & Hk & Hfun). rewrite E in *.
    rewrite item_expr; [now rewrite H|assumption|]. intros ->. rewrite (Hfun eq_refl) in Wf. discriminate.
  - apply (ev_mono (block_roundtrip b W)). intros f H. now apply item_block.
Qed.
