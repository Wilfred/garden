(* C01 -- Front end never crashes on any source text: THE LEXER PART.
   Only statements here; proofs are in LexProps.v, the model is Lex.v
   (src/parser/lex.rs `lex_between`, every `&s[a..b]` checked against char
   boundaries, `from_offset` checked against the length).

   The parser / checker / formatter part of C01 is NOT proved here: it is
   covered by search only (tools/props/C01.py). *)
From Coq Require Import NArith Bool List.
From Garden Require Import Base.Utf Lex LexProps.
Import ListNotations.
Open Scope N_scope.

(* For ALL sources (any list of scalar values, any length) the lexer returns
   tokens, trailing comments and errors: no slice off a char boundary, no
   out-of-range line lookup, and the loop finishes within its fuel. *)
Theorem lex_total : forall src : list N, exists ts tr es, lex src = LexOk ts tr es.
Proof. exact lex_total_lemma. Qed.
Print Assumptions lex_total.

Theorem lex_never_panics : forall src : list N, lex src <> LexPanic /\ lex src <> LexOutOfFuel.
Proof. exact lex_no_panic_lemma. Qed.
Print Assumptions lex_never_panics.

(* Progress: one iteration of the lexer loop at a char boundary `blen p` of
   `p ++ s` with text left (`s <> []`) never panics and consumes a non-empty
   prefix of s (LexProps.step_ok); positions it builds are well-formed. *)
Theorem lex_step_progress : forall p s : list N, s <> [] ->
  step_ok (p ++ s) p s (lex_step cfg_fixed (p ++ s) (blen p)).
Proof. exact lex_step_ok. Qed.
Print Assumptions lex_step_progress.

(* Every token's text is non-empty and is exactly the source text between its
   start and end offsets (which therefore are char boundaries). *)
Theorem lex_tokens_nonempty : forall src ts tr es, lex src = LexOk ts tr es ->
  forall t, In t ts ->
    ttext t <> [] /\ slice src (start_offset (tpos t)) (end_offset (tpos t)) = Some (ttext t).
Proof. exact lex_token_text_lemma. Qed.
Print Assumptions lex_tokens_nonempty.

(* Non-vacuity: `let x = 1 é<U+00A0>"a<LF>€"` -- an unrecognised 2-byte char,
   2-byte whitespace and a multi-line string with a 3-byte char. *)
Example lex_total_example :
  exists ts es, lex sample_src = LexOk ts [] es /\
    tok_texts ts = [[108; 101; 116]; [120]; [61]; [49]; [34; 97; 10; 8364; 34]] /\
    map (fun t => pos_fields (tpos t)) ts =
      [[0; 3; 0; 0; 0; 3]; [4; 5; 0; 0; 4; 5]; [6; 7; 0; 0; 6; 7]; [8; 9; 0; 0; 8; 9]; [14; 21; 0; 1; 14; 4]] /\
    map (fun e => pos_fields (epos e)) es = [[10; 12; 0; 0; 10; 12]].
Proof. exact sample_lex. Qed.
Print Assumptions lex_total_example.

(* With fix_a off (cfg_orig switches all three fixes off; here `offset += 1`,
   `&s[0..1]` matter) `let x = 1 é` and `1<U+00A0>2` panic. *)
Theorem unfixed_lexer_panics :
  lex_with cfg_orig [108; 101; 116; 32; 120; 32; 61; 32; 49; 32; 233] = LexPanic /\
  lex_with cfg_orig [49; 160; 50] = LexPanic.
Proof. exact (conj orig_nonascii_panics orig_nbsp_panics). Qed.
Print Assumptions unfixed_lexer_panics.
