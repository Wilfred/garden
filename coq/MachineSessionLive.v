(* C08: interrupted runs.  The user presses Ctrl-C before some iterations of the
   eval loop and answers every `Interrupted` with `:resume`.  Such a run is
   simulated by the uninterrupted one: every schedule entry either only uses up
   a pending interrupt, or makes the very step the uninterrupted run makes
   (step_sim).  So the run ends like some prefix of the uninterrupted run, and
   it gets as far: a run that finishes in n iterations uninterrupted finishes,
   with the same result, under every schedule with n interrupt-free entries
   (one more if a Ctrl-C was already pending). *)
From Coq Require Import PeanoNat NArith List Lia.
From Garden Require Import Machine MachineInv MachineSession.
Import ListNotations.
Open Scope nat_scope.

Definition nfalse (sched : list bool) : nat := length (filter negb sched).
Definition b2n (b : bool) : nat := if b then 1 else 0.

Definition out_of_fuel (r : run_result) : bool :=
  match r with ROutOfFuel _ => true | _ => false end.

Lemma nfalse_cons b sched : nfalse (b :: sched) + b2n b = 1 + nfalse sched.
Proof. unfold nfalse. destruct b; cbn; lia. Qed.

Lemma same_work_set_int a b fl : same_work a b -> same_work (set_int a fl) b.
Proof. unfold same_work, set_int. destruct fl; cbn; auto. Qed.

Lemma set_int_flag s b : b2n (interrupted (set_int s b)) <= b2n (interrupted s) + b2n b.
Proof. destruct b; cbn; [destruct (interrupted s); cbn|]; lia. Qed.

(* What the steps from s1 and from s2 answer when s1 does not stop for an
   interrupt: the same, and no new interrupt is pending afterwards. *)
Definition same_step (s1 : state) (o1 o2 : outcome) : Prop :=
  match o1, o2 with
  | Next a, Next b =>
      same_work a b /\ interrupted b = false /\ b2n (interrupted a) <= b2n (interrupted s1)
  | Done v a, Done w b => v = w /\ stack a = stack b /\ out a = out b
  | Failed e a, Failed e' b =>
      e = e' /\ ekind_of e <> KInterrupted /\ stack a = stack b /\ out a = out b
  | Crashed, Crashed | Unsupported, Unsupported => True
  | _, _ => False
  end.

Lemma step_sim p s1 s2 :
  same_work s1 s2 -> interrupted s2 = false ->
  (exists e s1', step p s1 = Failed e s1' /\ ekind_of e = KInterrupted /\
                 same_work s1' s2 /\ interrupted s1 = true /\ interrupted s1' = false) \/
  same_step s1 (step p s1) (step p s2).
Proof.
  intros (ST & OU & TL1 & TL2 & SL) I2. unfold step. rewrite ST, OU, TL1, TL2, SL, I2.
  destruct (stack s2) as [|f rest] eqn:ES; [right; exact I|].
  destruct (todo f) as [|[es e] t].
  - (* a frame returns, or the evaluation ends: the flag is not looked at *)
    right. destruct rest, (vals f); cbn; unfold same_work; cbn; auto 10 with arith.
  - destruct (interrupted s1).
    + left. do 2 eexists. split; [reflexivity|]. unfold same_work. cbn. rewrite ES. auto 10.
    + right. cbn [opt_le]. destruct (opt_lt _ _).
      { cbn. repeat split; discriminate. }
      destruct (exec p (set_todo f t) es e) eqn:EX; cbn; unfold same_work; cbn; auto 10 with arith.
      apply exec_spec in EX. cbn in EX. rewrite EX. repeat split; discriminate.
Qed.

(* n counts the schedule entries that went to a step; when the schedule runs
   out, every other entry went to an interrupt, pressed at it or pending before. *)
Theorem interrupted_run_progress p : forall sched s1 s2,
  same_work s1 s2 -> interrupted s2 = false ->
  exists n, n <= length sched /\
            (out_of_fuel (run_int p sched s1) = true -> nfalse sched <= n + b2n (interrupted s1)) /\
            same_result (run_int p sched s1) (run p n s2).
Proof.
  induction sched as [|b sched IH]; intros s1 s2 W I2.
  - exists 0. destruct W as (S & O & _). cbn. auto with arith.
  - pose proof (nfalse_cons b sched) as NC. pose proof (set_int_flag s1 b) as FB.
    cbn [run_int length].
    destruct (step_sim p (set_int s1 b) s2 (same_work_set_int _ _ b W) I2)
      as [(e & s1' & -> & -> & W' & I1 & I1')|S].
    + destruct (IH s1' s2 W' I2) as (n & Hn & P & R). rewrite I1 in FB. rewrite I1' in P.
      exists n. cbn [b2n] in *. repeat split; [lia| |exact R]. intros OF. specialize (P OF). lia.
    + destruct (step p (set_int s1 b)) as [a|v a|e a| |], (step p s2) as [c|w c|e' c| |] eqn:E2;
        cbn [same_step] in S; try contradiction.
      * destruct S as (W' & I2' & F). destruct (IH a c W' I2') as (n & Hn & P & R).
        exists (S n). cbn [run]. rewrite E2. repeat split; [lia| |exact R].
        intros OF. specialize (P OF). lia.
      * exists 1. cbn [run]. rewrite E2. repeat split; [lia|discriminate|..]; apply S.
      * destruct S as (<- & K & S). exists 1. cbn [run]. rewrite E2.
        destruct (ekind_of e); [|contradiction|..]; repeat split; try (lia || discriminate); apply S.
      * exists 1. cbn [run]. rewrite E2. repeat split; [lia|discriminate].
      * exists 1. cbn [run]. rewrite E2. repeat split; [lia|discriminate].
Qed.

Lemma run_mono p : forall n s m, out_of_fuel (run p n s) = false -> n <= m -> run p m s = run p n s.
Proof.
  induction n as [|n IH]; intros s m T L.
  - cbn in T. discriminate.
  - destruct m as [|m]; [lia|]. cbn [run] in *.
    destruct (step p s); try reflexivity. apply IH; [exact T|lia].
Qed.

Lemma same_result_oof a b : same_result a b -> out_of_fuel a = out_of_fuel b.
Proof. destruct a, b; cbn; intros H; try reflexivity; contradiction. Qed.

(* Liveness + equivalence: if the uninterrupted run finishes (value or error) within
   n iterations, then under EVERY schedule with at least n interrupt-free entries
   the interrupted-and-resumed run finishes too, with the same result and output. *)
Theorem interrupted_run_finishes p sched s1 s2 n :
  same_work s1 s2 -> interrupted s2 = false ->
  out_of_fuel (run p n s2) = false ->
  n + b2n (interrupted s1) <= nfalse sched ->
  out_of_fuel (run_int p sched s1) = false /\ same_result (run_int p sched s1) (run p n s2).
Proof.
  intros W I2 T L.
  destruct (interrupted_run_progress p sched s1 s2 W I2) as (m & Hm & P & R).
  rewrite (same_result_oof _ _ R) in *.
  (* the simulating run took m steps: n or more if it ran out of fuel, else enough to finish *)
  assert (E : run p m s2 = run p n s2).
  { destruct (out_of_fuel (run p m s2)) eqn:OF.
    - apply run_mono; [exact T|]. specialize (P eq_refl). lia.
    - destruct (Nat.le_ge_cases n m); [|symmetry]; now apply run_mono. }
  rewrite E in *. auto.
Qed.
