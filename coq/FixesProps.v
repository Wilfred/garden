(* C22. On a list in which each fix ends at or before its predecessor's start (`chain`) apply_seq is the
   simultaneous splice (`spliced`) and panics only off a character boundary; `select` yields such a list. Then what the two removal fixes do to a block's value and output. *)
From Coq Require Import NArith Arith Bool List Lia.
From Garden Require Import Base.Utf Base.UtfProps Fixes.
Import ListNotations.
Open Scope N_scope.

Lemma take_drop_app : forall p q, take_bytes (p ++ q) (blen p) = Some p /\ drop_bytes (p ++ q) (blen p) = Some q.
Proof. intros. split; [apply take_bytes_app|apply drop_bytes_app]. Qed.

Lemma apply_one_inv : forall s f out, apply_one s f = Some out -> f_start f <= f_end f ->
  exists keep del rest, s = keep ++ del ++ rest /\ blen keep = f_start f /\ f_start f + blen del = f_end f /\
                        out = keep ++ f_new f ++ rest.
Proof.
  intros s f out H L. unfold apply_one, take_bytes, drop_bytes in H.
  destruct (split_bytes s (f_start f)) as [[keep b]|] eqn:Ea; [|discriminate].
  destruct (split_bytes s (f_end f)) as [[a' rest]|] eqn:Eb; [|discriminate]. injection H as <-.
  destruct (split_bytes_sound _ _ _ _ Ea) as [Es Hk]. destruct (split_bytes_sound _ _ _ _ Eb) as [Es' Hk'].
  destruct (prefixes_nest keep b a' rest) as (del & -> & ->); [congruence|lia|].
  exists keep, del, rest. rewrite blen_app in Hk'. repeat split; [exact Es|exact Hk|lia].
Qed.

Lemma apply_one_no_panic : forall s f, boundary s (f_start f) -> boundary s (f_end f) ->
  exists out, apply_one s f = Some out.
Proof.
  intros s f Bs Be. apply is_boundary_iff in Bs, Be. unfold is_boundary in Bs, Be.
  unfold apply_one, take_bytes, drop_bytes.
  destruct (split_bytes s (f_start f)) as [[a b]|]; [|discriminate].
  destruct (split_bytes s (f_end f)) as [[a' q]|]; [|discriminate]. eauto.
Qed.

Definition wf_in (bound : N) (f : afix) : Prop := f_start f <= f_end f /\ f_end f <= bound.

Lemma chain_in : forall l b g, chain b l -> In g l -> wf_in b g.
Proof.
  induction l as [|f r IH]; intros b g C Hin; [contradiction|].
  cbn [chain] in C. destruct C as (H1 & H2 & Cr). destruct Hin as [->|Hin]; [now split|].
  destruct (IH _ _ Cr Hin). split; [assumption | lia].
Qed.

Lemma spliced_snoc : forall p pos fs out f del q,
  spliced p pos fs out -> pos + blen p = f_start f -> f_start f + blen del = f_end f ->
  spliced (p ++ del ++ q) pos (fs ++ [f]) (out ++ f_new f ++ q).
Proof.
  intros p pos fs out f del q H. induction H as [s pos|keep d rest pos g fs out Hk Hd Hr IH]; intros Hp Hdel.
  - exact (sp_cons s del q pos f [] q Hp Hdel (sp_nil q (f_end f))).
  - rewrite !blen_app in Hp. rewrite <- !app_assoc. cbn [app].
    apply sp_cons; [assumption|assumption|]. apply IH; [lia|assumption].
Qed.

Lemma boundary_app : forall a b o, boundary a o -> boundary (a ++ b) o.
Proof. intros a b o (p & q & -> & <-). exists p, (q ++ b). now rewrite app_assoc. Qed.

Lemma boundary_prefix : forall a b o, boundary (a ++ b) o -> o <= blen a -> boundary a o.
Proof.
  intros a b o (p & q & E & Hb) L. subst o.
  destruct (prefixes_nest p q a b (eq_sym E) L) as (m & -> & _). now exists p, m.
Qed.

(* The first fix applied is the last region of p; the others work inside what it kept, so what follows p is
   never touched. *)
Lemma apply_seq_spec : forall l p x, chain (blen p) l ->
  match apply_seq (p ++ x) l with
  | Some out => exists out', out = out' ++ x /\ spliced p 0 (rev l) out'
  | None => ~ on_boundaries p l
  end.
Proof.
  induction l as [|f r IH]; intros p x C; cbn [apply_seq rev].
  - exists p. split; [reflexivity | constructor].
  - cbn [chain] in C. destruct C as (Hse & Heb & Cr).
    destruct (apply_one (p ++ x) f) as [s'|] eqn:E.
    + destruct (apply_one_inv _ _ _ E Hse) as (keep & del & rest0 & Es & Hk & Hd & ->).
      destruct (prefixes_nest (keep ++ del) rest0 p x) as (rest & -> & ->);
        [now rewrite <- app_assoc | rewrite blen_app; lia |].
      rewrite <- Hk in Cr. specialize (IH keep (f_new f ++ rest ++ x) Cr).
      destruct (apply_seq (keep ++ f_new f ++ rest ++ x) r) as [out|].
      * destruct IH as (out' & -> & Sp). exists (out' ++ f_new f ++ rest). rewrite <- !app_assoc.
        split; [reflexivity|]. apply spliced_snoc; [exact Sp | lia | exact Hd].
      * intro B. apply IH. inversion B as [|? ? _ Br]; subst.
        unfold on_boundaries in *. rewrite Forall_forall in *. intros g Hg.
        destruct (Br g Hg) as [G1 G2]. destruct (chain_in _ _ _ Cr Hg) as [L1 L2].
        rewrite <- app_assoc in G1, G2. split; eapply boundary_prefix; try eassumption. lia.
    + intro B. inversion B as [|? ? [Bs Be] _]; subst.
      destruct (apply_one_no_panic (p ++ x) f) as (s' & E'); [now apply boundary_app.. | congruence].
Qed.

Theorem apply_fixes_splice_lemma : forall s l, chain (blen s) l ->
  (forall out, apply_seq s l = Some out -> spliced s 0 (rev l) out) /\
  (on_boundaries s l -> exists out, apply_seq s l = Some out /\ spliced s 0 (rev l) out).
Proof.
  intros s l C. pose proof (apply_seq_spec l s [] C) as H. rewrite app_nil_r in H.
  destruct (apply_seq s l) as [out|].
  - destruct H as (out' & -> & Sp). rewrite app_nil_r. split; [intros ? [= <-]; exact Sp | eauto].
  - split; [discriminate | contradiction].
Qed.

Lemma chainb_chain : forall l bound, chainb bound l = true <-> chain bound l.
Proof.
  induction l as [|f r IH]; intro bound; cbn [chainb chain]; [tauto|].
  rewrite !andb_true_iff, !N.leb_le, IH. tauto.
Qed.

Lemma in_insert_desc : forall x f l, In x (insert_desc f l) <-> x = f \/ In x l.
Proof.
  induction l as [|g r IH]; cbn [insert_desc In]; [intuition|].
  destruct (f_start f <? f_start g); cbn [In]; [rewrite IH; tauto|]. split; intros [H|H]; auto.
Qed.

Lemma in_sort_desc : forall x l, In x (sort_desc l) <-> In x l.
Proof.
  induction l as [|f r IH]; cbn [sort_desc fold_right In]; [tauto|].
  fold (sort_desc r). rewrite in_insert_desc, IH. intuition.
Qed.

(* On a list without adjacent overlap each fix ends where its predecessor starts, at the latest; so only the
   first one has to be compared with the bound. *)
Lemma no_overlap_chain_from : forall l bound, Forall (fun f => f_start f <= f_end f) l ->
  adjacent_overlap l = false -> match l with f :: _ => f_end f <= bound | [] => True end -> chain bound l.
Proof.
  induction l as [|f r IH]; intros bound W A Hb; cbn [chain]; [exact I|].
  inversion W as [|? ? W1 Wr]; subst. cbn [adjacent_overlap] in A. apply orb_false_iff in A as [A1 A2].
  split; [assumption|]. split; [assumption|]. apply IH; [assumption|assumption|].
  destruct r as [|g r']; [exact I|]. now apply N.ltb_ge in A1.
Qed.

Lemma no_overlap_chain : forall l bound, Forall (wf_in bound) l -> adjacent_overlap l = false -> chain bound l.
Proof.
  intros l bound W A. apply no_overlap_chain_from; [|exact A|].
  - apply (Forall_impl _ (fun f (H : wf_in bound f) => proj1 H) W).
  - destruct W as [|f r [_ H] _]; [exact I|exact H].
Qed.

Lemma add_group_invariant : forall bound acc g, Forall (wf_in bound) g -> chain bound acc ->
  chain bound (add_group acc g) /\ incl (add_group acc g) (acc ++ g).
Proof.
  intros bound acc g Wg CA. unfold add_group. destruct (adjacent_overlap (sort_desc (acc ++ g))) eqn:E.
  - split; [exact CA|]. apply incl_appl, incl_refl.
  - split; [|intros x Hx; now apply in_sort_desc]. apply no_overlap_chain; [|exact E].
    rewrite Forall_forall in *. intros x Hx. apply (proj1 (in_sort_desc _ _)), in_app_or in Hx as [Hx|Hx]; [|auto].
    exact (chain_in _ _ _ CA Hx).
Qed.

Lemma select_invariant : forall groups acc bound, Forall (Forall (wf_in bound)) groups -> chain bound acc ->
  let sel := fold_left add_group groups acc in
  chain bound sel /\ incl sel (acc ++ concat groups).
Proof.
  induction groups as [|g gs IH]; intros acc bound WG CA; cbn [fold_left concat].
  - split; [exact CA|]. rewrite app_nil_r. apply incl_refl.
  - inversion WG as [|? ? Wg Wgs]; subst.
    destruct (add_group_invariant bound acc g Wg CA) as (C1 & I1).
    destruct (IH _ bound Wgs C1) as (C2 & I2). split; [exact C2|].
    rewrite app_assoc. intros x Hx. apply I2, in_app_or in Hx as [Hx|Hx]; apply in_or_app; auto.
Qed.

Theorem apply_fixes_total_lemma : forall s groups,
  Forall (Forall (wf_in (blen s))) groups ->
  let sel := select groups in
  chain (blen s) sel /\ incl sel (concat groups) /\
  (forall out, apply_fixes s groups = Some out -> spliced s 0 (rev sel) out) /\
  (on_boundaries s sel -> exists out, apply_fixes s groups = Some out).
Proof.
  intros s groups W sel.
  destruct (select_invariant groups [] (blen s) W I) as (C & Hin).
  split; [exact C|]. split; [exact Hin|]. unfold apply_fixes. fold sel.
  destruct (apply_fixes_splice_lemma s sel C) as [H1 H2]. split; [exact H1|].
  intro B. destruct (H2 B) as (out & E & _). eauto.
Qed.

Lemma add_group_atomic : forall acc g, add_group acc g = acc \/ (forall x, In x g -> In x (add_group acc g)).
Proof.
  intros acc g. unfold add_group. destruct (adjacent_overlap _); [now left|right].
  intros x Hx. apply in_sort_desc. apply in_or_app. now right.
Qed.

(* `chain` is needed in apply_fixes_splice_lemma: apply_fixes_orig, the code before the repair, sorts and
   applies without it *)
Theorem apply_fixes_overlap_refuted_lemma :
  let s := [97; 98; 99; 100; 101; 102] in                       (* "abcdef" *)
  let nested := [mkfix 1 4 []; mkfix 2 3 []] in                 (* delete "bcd"; delete "c" inside it *)
  let twice := [mkfix 0 2 []; mkfix 0 2 []] in                  (* the same deletion offered twice *)
  chainb (blen s) (sort_desc nested) = false /\
  apply_fixes_orig s nested = Some [97; 102] /\                 (* "af": the `e` outside both regions is lost *)
  apply_fixes_orig [97; 98; 99] twice = None /\                 (* panic: slice past the end *)
  apply_fixes_orig s twice = Some [101; 102] /\                 (* "ef": four characters deleted instead of two *)
  apply_fixes s [[mkfix 1 4 []]; [mkfix 2 3 []]] = Some [97; 101; 102] /\   (* repaired: "aef" *)
  apply_fixes s [[mkfix 0 2 []]; [mkfix 0 2 []]] = Some [99; 100; 101; 102].
Proof. vm_compute. repeat split; reflexivity. Qed.

Theorem line_removal_lemma : forall src a b s e, a <= b -> line_removal src a b = Some (s, e) ->
  exists before pre lit post after,
    src = before ++ pre ++ lit ++ post ++ after /\
    blen before = s /\ blen (before ++ pre) = a /\ blen (before ++ pre ++ lit) = b /\
    blen (before ++ pre ++ lit ++ post) = e /\
    all_ws pre = true /\ all_ws post = true.
Proof.
  intros src a b s e Hab H. unfold line_removal, line_bounds, take_bytes, drop_bytes in H.
  destruct (split_bytes src a) as [[p x]|] eqn:Ea; [|discriminate].
  destruct (split_bytes src b) as [[p' q]|] eqn:Eb; [|discriminate].
  destruct (split_bytes_sound _ _ _ _ Ea) as [Hs Hp]. destruct (split_bytes_sound _ _ _ _ Eb) as [Hs' Hp'].
  destruct (prefixes_nest p x p' q) as (lit & -> & ->); [congruence|lia|]. clear Hs'. rewrite blen_app in Hp'.
  set (ls := match rfind_lf p with Some i => i + 1 | None => 0 end) in H.
  set (le := match find_lf q with Some i => b + i + 1 | None => blen src end) in H.
  clearbody ls le.
  destruct (slice src ls a) as [pre|] eqn:S1; [|discriminate].
  destruct (slice src b le) as [post|] eqn:S2; [|discriminate].
  destruct (all_ws pre && all_ws post) eqn:W; injection H as <- <-.
  - (* the whole line(s): both slices are whitespace, and they sit around the literal *)
    apply andb_true_iff in W as [W1 W2].
    destruct (slice_sound _ _ _ _ S1) as (before & r1 & E1 & B1 & B1' & L1).
    destruct (slice_sound _ _ _ _ S2) as (u & after & E2 & B2 & B2' & L2).
    destruct (prefix_unique (before ++ pre) r1 p (lit ++ q)) as [<- ->];
      [rewrite <- app_assoc; congruence|rewrite blen_app; lia|].
    destruct (prefix_unique u (post ++ after) ((before ++ pre) ++ lit) q) as [-> <-];
      [rewrite <- app_assoc; congruence|rewrite blen_app; lia|].
    exists before, pre, lit, post, after. rewrite <- !app_assoc in Hs. repeat split; auto.
    + now rewrite app_assoc.
    + rewrite !app_assoc, blen_app, B2, B2'. lia.
  - exists p, [], lit, [], q. cbn [app]. rewrite !app_nil_r, !blen_app. repeat split; auto; lia.
Qed.

(* the code before the repair deletes other code on the line: `1 println("hi")\n` *)
Theorem line_removal_orig_refuted_lemma :
  let src := [49; 32; 112; 114; 105; 110; 116; 108; 110; 40; 34; 104; 105; 34; 41; 10] in
  line_removal_orig src 0 1 = Some (0, 16) /\                   (* the literal `1` is [0,1); the whole text goes *)
  (exists post, slice src 1 16 = Some post /\ all_ws post = false) /\
  line_removal src 0 1 = Some (0, 1).
Proof.
  intro src. split; [reflexivity|]. split; [|reflexivity].
  exists (tl src). split; reflexivity.
Qed.

Lemma dedup_first_in : forall l seen k, In k seen \/ In k (dedup_first seen l) <-> In k seen \/ In k l.
Proof.
  induction l as [|j r IH]; intros seen k; cbn [dedup_first In]; [tauto|].
  destruct (existsb (Nat.eqb j) seen) eqn:E.
  - rewrite IH. apply existsb_exists in E as (j' & Hin & Hj). apply Nat.eqb_eq in Hj. subst j'.
    split; [tauto|]. intros [H|[<-|H]]; auto.
  - cbn [In]. rewrite <- !or_assoc, (or_comm (In k seen)). exact (IH (j :: seen) k).
Qed.

Lemma dedup_first_same_keys : forall l k, In k (dedup_first [] l) <-> In k l.
Proof.
  intros l k. destruct (dedup_first_in l [] k) as [H1 H2].
  split; intro X; [destruct (H1 (or_intror X)) as [[]|Y]|destruct (H2 (or_intror X)) as [[]|Y]]; exact Y.
Qed.

Theorem repeated_bool_or_lemma : forall env l, or_chain env (dedup_first [] l) = or_chain env l.
Proof.
  intros env l. unfold or_chain. apply eq_true_iff_eq. rewrite !existsb_exists.
  split; intros (k & Hin & Hk); exists k; (split; [now apply dedup_first_same_keys|exact Hk]).
Qed.

Theorem repeated_bool_and_lemma : forall env l, and_chain env (dedup_first [] l) = and_chain env l.
Proof.
  intros env l. unfold and_chain. apply eq_true_iff_eq. rewrite !forallb_forall.
  split; intros H k Hin; now apply H, dedup_first_same_keys.
Qed.

Lemma run_block_app : forall l1 l2 last env out,
  run_block (l1 ++ l2) last env out =
  (fix go l last env out := match l with
     | [] => run_block l2 last env out
     | st :: r => let '(v, env', o) := step st env out in go r v env' o end) l1 last env out.
Proof.
  induction l1 as [|st r IH]; intros; cbn [app run_block]; [reflexivity|].
  destruct (step st env out) as [[v env'] o]. apply IH.
Qed.

Lemma run_block_prefix : forall l1 l2, (forall last env out, run_block l1 last env out = run_block l2 last env out) ->
  forall pre last env out, run_block (pre ++ l1) last env out = run_block (pre ++ l2) last env out.
Proof.
  intros l1 l2 H. induction pre as [|st r IH]; intros last env out; cbn [app run_block]; [apply H|].
  destruct (step st env out) as [[v env'] o]. apply IH.
Qed.

(* dropping a literal statement that is not the last one of its block changes neither value nor output *)
Theorem drop_unused_literal_lemma : forall pre v post last env out, post <> [] ->
  run_block (pre ++ SLit v :: post) last env out = run_block (pre ++ post) last env out.
Proof.
  intros pre v [|st2 post] last env out Hne; [contradiction|]. apply run_block_prefix. reflexivity.
Qed.

(* ... but a literal that IS the last statement is the block's value *)
Theorem drop_last_literal_refuted_lemma : exists pre v last env out,
  run_block (pre ++ [SLit v]) last env out <> run_block pre last env out.
Proof. exists [], 7, 0, (fun _ => 0), []. cbn. discriminate. Qed.

(* `let x = e  x` at the end of a block is `e` *)
Theorem unnecessary_let_lemma : forall pre x e last env out,
  run_block (pre ++ [SLet x e; SVar x]) last env out = run_block (pre ++ [SExpr e]) last env out.
Proof.
  intros pre x e. apply run_block_prefix. intros last env out. cbn [run_block step].
  destruct (e env out) as [v o]. now rewrite Nat.eqb_refl.
Qed.

(* removing `let x =` from a let that is the LAST statement changes the block's value (Unit vs e) *)
Theorem unused_let_tail_refuted_lemma : exists x e last env out,
  run_block [SLet x e] last env out <> run_block [SExpr e] last env out.
Proof. exists 0%nat, (fun _ o => (5, o)), 0, (fun _ => 0), []. cbn. discriminate. Qed.

(* ... and does not when one literal statement follows it *)
Theorem unused_let_removal_lemma : forall x e v2 last env out,
  run_block [SLet x e; SLit v2] last env out = run_block [SExpr e; SLit v2] last env out.
Proof. intros. cbn [run_block step]. destruct (e env out) as [v o]. reflexivity. Qed.

Lemma on_boundaries_b : forall s l,
  forallb (fun f => is_boundary s (f_start f) && is_boundary s (f_end f)) l = true -> on_boundaries s l.
Proof.
  intros s l H. unfold on_boundaries. rewrite Forall_forall. rewrite forallb_forall in H.
  intros f Hf. specialize (H f Hf). apply andb_true_iff in H as [H1 H2]. split; now apply is_boundary_iff.
Qed.

(* "aébcd" (e-acute is 2 bytes): delete the e-acute [1,3), replace "c" [4,5) by "x" *)
Definition ex_src : list N := [97; 233; 98; 99; 100].
Definition ex_fixes : list afix := [mkfix 4 5 [120]; mkfix 1 3 []].

Lemma apply_fixes_splice_example_lemma :
  chain (blen ex_src) ex_fixes /\ on_boundaries ex_src ex_fixes /\
  apply_seq ex_src ex_fixes = Some [97; 98; 120; 100] /\
  apply_seq ex_src [mkfix 2 3 []] = None.                          (* inside the e-acute: panic *)
Proof.
  split; [apply chainb_chain; reflexivity|]. split; [apply on_boundaries_b; reflexivity|].
  split; reflexivity.
Qed.

(* three diagnostics: {delete [1,3)}, {a pair: [0,1) -> "y" and [2,5) -> ""} (overlaps the first: skipped as a
   whole), {[4,5) -> "x"} *)
Definition ex_groups : list (list afix) :=
  [[mkfix 1 3 []]; [mkfix 0 1 [121]; mkfix 2 5 []]; [mkfix 4 5 [120]]].

Lemma apply_fixes_total_example_lemma :
  Forall (Forall (wf_in (blen ex_src))) ex_groups /\
  select ex_groups = ex_fixes /\ on_boundaries ex_src (select ex_groups) /\
  apply_fixes ex_src ex_groups = Some [97; 98; 120; 100].
Proof.
  split.
  { repeat constructor; discriminate. }
  split; [reflexivity|]. split; [apply on_boundaries_b; reflexivity|reflexivity].
Qed.

(* "{\n  1\n  2}": the literal `1` at [4,5) alone on its line -> the whole line [2,6) goes;
   "{ 1 2 }": the literal `1` at [2,3) -> only [2,3) *)
Lemma line_removal_example_lemma :
  line_removal [123; 10; 32; 32; 49; 10; 32; 32; 50; 125] 4 5 = Some (2, 6) /\
  line_removal [123; 32; 49; 32; 50; 32; 125] 2 3 = Some (2, 3).
Proof. split; reflexivity. Qed.
