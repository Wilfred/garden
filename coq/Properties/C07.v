(* C07 -- Resuming after a runtime error reproduces the same error. *)
From Coq Require Import ZArith NArith Bool List.
From Garden Require Import Base.Int64 Arith gen.Tables Machine MachineInv.
Import ListNotations.
Open Scope nat_scope.

(* A failing step (any built-in, operator, call, pattern match, limit or
   interrupt) leaves the stack of frames -- pending expressions, value stacks,
   binding blocks -- and the output exactly as they were before the step. *)
Theorem error_step_restores : forall p s e s',
  step p s = Failed e s' ->
  stack s' = stack s /\ out s' = out s /\ interrupted s' = false /\
  tick_limit s' = tick_limit s /\ stack_limit s' = stack_limit s /\ ticks s' = (ticks s + 1)%N.
Proof. exact step_failed_restores. Qed.
Print Assumptions error_step_restores.

(* Hence, when the error is a Garden exception (`KException`: not a limit, not
   an interrupt) and no tick limit is set (sessions run without one), :resume
   with nothing changed fails again with the same error (same kind, same
   position) on the same values, any number of times. *)
Theorem resume_idempotent : forall p n s e s',
  step p s = Failed e s' -> ekind_of e = KException -> tick_limit s = None ->
  exists s'', resume_n p (S n) s' = Some (e, s'') /\ stack s'' = stack s.
Proof. exact resume_idempotent. Qed.
Print Assumptions resume_idempotent.

(* Non-vacuity: println(1) fails; three resumes later same error, same frame. *)
Definition mt (u : bool) (a b : N) : meta := {| used := u; pstart := a; pend := b |}.
Definition ex_prog : prog := {| globals := [(5%N, VBuiltin BiPrintln)]; funs := [] |}.
Definition ex_exprs : list expr := [ ECall (mt true 0 10) (EVar (mt true 0 7) 5%N) [EInt (mt true 8 9) 1%Z] ].
Example resume_example :
  match run ex_prog 100 (init_state ex_exprs None None) with
  | RFailed e s =>
      match resume_n ex_prog 3 s with
      | Some (e', s') => e' = e /\ stack s' = stack s /\ epos_of e = (8%N, 9%N)
      | None => False
      end
  | _ => False
  end.
Proof. vm_compute. repeat split; reflexivity. Qed.
Print Assumptions resume_example.
