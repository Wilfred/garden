(* The evaluator keeps the value-stack / binding-block discipline of
   SessionProps.v (`stack_run`) on the structured fragment, and never crashes
   from a state that satisfies it: a case analysis over Machine.exec /
   Machine.step.  This discharges the hypothesis `evaluator_keeps_discipline`
   of SessionProps.handle_no_panic_partial_lemma for well-formed programs. *)
From Coq Require Import PeanoNat NArith Bool List Lia.
From Garden Require Import Base.Int64 Arith gen.Tables Machine MachineInv Session SessionProps.
Import ListNotations.
Open Scope nat_scope.

Definition prog_ok (p : prog) : Prop :=
  wf_prog p = true /\ globals_ok p = true /\ globals_noint p = true.

Lemma int_arm_no_panic io a b : arm_sem true (int_arm io) a b <> Panic.
Proof.
  destruct io; unfold arm_sem, int_arm; cbn [guards body run_guards guard_fires core_sem];
    unfold checked, of_opt;
    repeat match goal with
           | |- context [if ?c then _ else _] => destruct c eqn:?
           | |- context [match checked_pow ?x ?y with _ => _ end] => destruct (checked_pow x y)
           end; try discriminate; congruence.
Qed.

Lemma upd_arm_val u a b : exists z, arm_sem true (upd_arm u) a b = Val z.
Proof. destruct u; unfold arm_sem, upd_arm; cbn; eauto. Qed.

Lemma int_of_some v a : int_of v = Some a -> v = VInt a.
Proof. destruct v; cbn; intros H; inversion H; reflexivity. Qed.

(* the nested fixpoints of `wf` are the toplevel ones *)
Lemma wf_list m l : wf (EList m l) = wf_all_used l.
Proof. induction l as [|x l IH]; [reflexivity|]. cbn [wf_all_used]. rewrite <- IH. reflexivity. Qed.
Lemma wf_tuple m l : wf (ETuple m l) = wf_all_used l.
Proof. exact (wf_list m l). Qed.
Lemma wf_call m f args : wf (ECall m f args) = eused f && wf f && wf_all_used args.
Proof. rewrite <- (wf_list m args). reflexivity. Qed.
Lemma wf_while m c b : wf (EWhile m c b) = eused c && wf c && wf_stmts false b.
Proof. reflexivity. Qed.

Lemma wf_if m c t el : wf (EIf m c t el) =
  eused c && wf c && wf_stmts (used m && is_some el) t && match el with Some b => wf_stmts (used m) b | None => true end.
Proof. destruct el; reflexivity. Qed.

Lemma wf_match m sc cases : wf (EMatch m sc cases) =
  eused sc && wf sc && forallb (fun c => wf_stmts (used m) (snd c)) cases.
Proof. reflexivity. Qed.

Lemma wf_return_some m x : wf (EReturn m (Some x)) = eused x && wf x.
Proof. reflexivity. Qed.

(* the statements of a block: all but the last leave nothing, the last leaves
   a value iff the block's value is used *)
Lemma rest_ok_stmts u body : forall T k nb, wf_stmts u body = true -> body <> [] ->
  rest_ok T (k + binc u) nb -> rest_ok (map (fun e => (SNot, e)) body ++ T) k nb.
Proof.
  induction body as [|x body IH]; intros T k nb H NE R; [contradiction|].
  cbn [map app]. destruct body as [|y body].
  - cbn [wf_stmts] in H. apply andb_prop in H. destruct H as [U W]. apply eqb_prop in U.
    apply rest_ok_new; [exact W|]. unfold uu. now rewrite U.
  - change (wf_stmts u (x :: y :: body)) with (negb (eused x) && wf x && wf_stmts u (y :: body)) in H.
    apply andb_prop in H. destruct H as [H H2]. apply andb_prop in H. destruct H as [U W].
    apply negb_true_iff in U.
    apply rest_ok_new; [exact W|]. unfold uu. rewrite U, Nat.add_0_r.
    apply IH; [exact H2|discriminate|exact R].
Qed.

Lemma AU_rev l : AU l -> AU (rev l).
Proof. unfold AU. intros H. apply Forall_rev. exact H. Qed.

Lemma AU_one x : eused x = true -> wf x = true -> AU [x].
Proof. repeat constructor; assumption. Qed.

(* values stay closure-free however they are built, bound and looked up, so a
   call never meets a closure (call_done_ok) *)
Lemma cfv_list l : Forall cfv l -> cfv (VList l).
Proof. unfold cfv. induction 1 as [|x l H _ IH]; [reflexivity|]. cbn in *. now rewrite H, IH. Qed.
Lemma cfv_tuple l : Forall cfv l -> cfv (VTuple l).
Proof. exact (cfv_list l). Qed.
Lemma cfv_bool b : cfv (vbool b).
Proof. destruct b; reflexivity. Qed.
Lemma cfv_unit : cfv vunit.
Proof. reflexivity. Qed.

Lemma assoc_cf x b v : cfb b -> assoc x b = Some v -> cfv v.
Proof.
  unfold cfb. induction 1 as [|[y w] b H _ IH]; cbn [assoc]; [discriminate|].
  destruct (N.eqb x y); [intros E; inversion E; subst; exact H|exact IH].
Qed.

Lemma lookup_cf x bs v : Forall cfb bs -> lookup_blocks x bs = Some v -> cfv v.
Proof.
  induction 1 as [|b bs H _ IH]; cbn [lookup_blocks]; [discriminate|].
  destruct (assoc x b) as [w|] eqn:E; [intros E2; inversion E2; subst; eapply assoc_cf; eassumption|exact IH].
Qed.

Lemma add_new_cf x v bs : Forall cfb bs -> cfv v -> Forall cfb (add_new x v bs).
Proof.
  unfold add_new. intros B V. destruct (N.eqb x underscore); [exact B|].
  destruct bs as [|b bs]; [constructor|]. inversion B; subst. constructor; [|assumption].
  constructor; assumption.
Qed.

Lemma add_all_cf l : forall bs, Forall cfb bs -> cfb l -> Forall cfb (add_all bs l).
Proof.
  induction l as [|[x v] l IH]; intros bs B L; cbn [add_all]; [exact B|].
  inversion L; subst. apply IH; [|assumption]. now apply add_new_cf.
Qed.

Lemma set_assoc_cf x v b : cfb b -> cfv v -> cfb (set_assoc x v b).
Proof.
  unfold cfb. induction 1 as [|[y w] b H Hb IH]; intros V; cbn [set_assoc]; [constructor|].
  destruct (N.eqb x y); constructor; cbn; auto.
Qed.

Lemma set_existing_cf x v : forall bs bs', Forall cfb bs -> cfv v -> set_existing x v bs = Some bs' -> Forall cfb bs'.
Proof.
  induction bs as [|b bs IH]; intros bs' B V H; cbn [set_existing] in H; [discriminate|].
  inversion B; subst. destruct (assoc x b).
  - inversion H; subst. constructor; [now apply set_assoc_cf|assumption].
  - destruct (set_existing x v bs) as [r|] eqn:E; [|discriminate]. inversion H; subst.
    constructor; [assumption|]. eapply IH; eauto.
Qed.

Lemma set_existing_some x v : forall bs w, lookup_blocks x bs = Some w -> exists bs', set_existing x v bs = Some bs'.
Proof.
  induction bs as [|b bs IH]; intros w H; cbn [lookup_blocks set_existing] in *; [discriminate|].
  destruct (assoc x b); [eauto|]. destruct (IH _ H) as [r ->]. eauto.
Qed.

Lemma zip_params_cf ps : forall vs, Forall cfv vs -> cfb (zip_params ps vs).
Proof.
  induction ps as [|q ps IH]; intros vs V; cbn [zip_params]; [constructor|].
  destruct vs as [|v vs]; [constructor|]. inversion V; subst.
  destruct (N.eqb q underscore); [now apply IH|]. constructor; [assumption|now apply IH].
Qed.

Lemma param_block_cf ps vs : Forall cfv vs -> cfb (param_block ps vs).
Proof. intros V. unfold param_block, cfb. apply Forall_rev. now apply zip_params_cf. Qed.

Lemma globals_cf p x v : globals_ok p = true -> assoc x (globals p) = Some v -> cfv v.
Proof.
  intros G. apply (assoc_cf x (globals p)). apply Forall_forall, forallb_forall, G.
Qed.

Lemma get_var_cf p f x v : globals_ok p = true -> Forall cfb (blocks f) -> get_var p f x = Some v -> cfv v.
Proof.
  unfold get_var. intros G B. destruct (lookup_blocks x (blocks f)) as [w|] eqn:E.
  - intros H; inversion H; subst. eapply lookup_cf; eassumption.
  - now apply globals_cf.
Qed.

Lemma assoc_in {A} x (l : list (ident * A)) v : assoc x l = Some v -> exists y, In (y, v) l.
Proof.
  induction l as [|[y w] l IH]; cbn [assoc]; [discriminate|].
  destruct (N.eqb x y); [intros H; inversion H; subst; exists y; left; reflexivity|].
  intros H. destruct (IH H) as [z I]. exists z. right. exact I.
Qed.

Lemma globals_noint_spec p x a : globals_noint p = true -> assoc x (globals p) = Some (VInt a) -> False.
Proof.
  unfold globals_noint. intros G H. destruct (assoc_in _ _ _ H) as [y I].
  rewrite forallb_forall in G. specialize (G _ I). discriminate.
Qed.

Lemma wf_prog_body p name fd : wf_prog p = true -> assoc name (funs p) = Some fd -> wf_stmts true (fbody fd) = true.
Proof.
  unfold wf_prog. intros WP H. destruct (assoc_in _ _ _ H) as [y I].
  rewrite forallb_forall in WP. exact (WP _ I).
Qed.

Lemma ok_block u body T VS BS NBk U :
  wf_stmts u body = true -> rest_ok T (length VS + binc u) (S (length BS)) ->
  Forall cfv VS -> Forall cfb BS -> cfb NBk ->
  frame_ok false 0 (eval_block (mkFrame T VS BS NBk U) u body) /\ uses (eval_block (mkFrame T VS BS NBk U) u body) = U.
Proof.
  intros WB R V BB NB. unfold eval_block. cbn [todo vals blocks nextb uses].
  assert (BL : Forall cfb (add_all ([] :: BS) NBk)).
  { apply add_all_cf; [constructor; [constructor|assumption]|assumption]. }
  change (S (length BS)) with (length (([] : block) :: BS)) in R. rewrite <- (add_all_length NBk) in R.
  destruct body as [|x body].
  - apply ok_push; [reflexivity|exact R|exact V|exact BL|constructor].
  - split; [|reflexivity]. apply ok_frame; [|exact V|exact BL|constructor].
    apply (rest_ok_stmts u); [exact WB|discriminate|exact R].
Qed.

Lemma callee_ok blk body u : wf_stmts true body = true -> cfb blk -> frame_ok false 0 (new_frame [blk] body u).
Proof.
  intros WB CB. apply ok_frame; [|repeat constructor; assumption..].
  destruct body as [|x body]; [apply rest_ok_nil; auto|].
  rewrite <- (app_nil_r (map _ (x :: body))). apply (rest_ok_stmts true); [exact WB|discriminate|]. apply rest_ok_nil; cbn; lia.
Qed.

Lemma return_unwind_some t : forall bs, 1 + MachineInv.pending t <= length bs ->
  exists bs', return_unwind t bs = Some bs' /\ 1 <= length bs' /\ (forall P : block -> Prop, Forall P bs -> Forall P bs').
Proof.
  induction t as [|[s e] t IH]; intros bs L; cbn [return_unwind].
  - exists bs. split; [reflexivity|]. cbn in L. split; [lia|auto].
  - cbn [MachineInv.pending] in L. unfold pops in L. cbn [fst snd] in L.
    destruct (entry_pops s e).
    + destruct bs as [|b0 [|b1 bs]]; cbn [length] in L; try lia. cbn [pop_block_list].
      destruct (IH (b1 :: bs) ltac:(cbn [length]; lia)) as (bs' & R & L' & P'). exists bs'. split; [exact R|]. split; [exact L'|].
      intros P F. apply P'. now inversion F.
    + destruct (IH bs ltac:(lia)) as (bs' & R & L' & P'). eauto.
Qed.

(* what a step may make of the frame f; after a call, f' is in order once the
   callee has pushed its result *)
Definition xres_ok (f : frame) (r : xres) : Prop :=
  match r with
  | XOk f' _ => frame_ok false 0 f' /\ uses f' = uses f
  | XCall f' callee => frame_ok false (binc (uses callee)) f' /\ uses f' = uses f /\ frame_ok false 0 callee
  | XErr _ => True
  | XPanic => False
  | XUnsupported => True
  end.

Lemma match_cases_ok p f0 T VS BS NBk U um spos ty idx payload : forall cases,
  forallb (fun c => wf_stmts um (snd c)) cases = true -> rest_ok T (length VS + binc um) (S (length BS)) ->
  Forall cfv VS -> Forall cfb BS -> cfb NBk ->
  match payload with Some pl => cfv pl | None => True end -> uses f0 = U ->
  xres_ok f0 (match_cases p (mkFrame T VS BS NBk U) um spos ty idx payload cases).
Proof.
  induction cases as [|[[[pat ppos] binder] body] cases IH]; intros WC R V BB NB PL UF; cbn [match_cases]; [exact I|].
  cbn [forallb snd] in WC. apply andb_prop in WC. destruct WC as [WB WC].
  specialize (IH WC R V BB NB PL UF).
  assert (BLK : forall nb, cfb nb -> xres_ok f0 (XOk (eval_block (mkFrame T VS BS nb U) um body) [])).
  { intros nb CN. unfold xres_ok. rewrite UF. now apply ok_block. }
  destruct (N.eqb pat underscore); [apply BLK; exact NB|].
  destruct (get_var p (mkFrame T VS BS NBk U) pat) as [pv|]; [|exact I].
  assert (HIT : forall t i,
    xres_ok f0 (if N.eqb ty t && N.eqb idx i
                then match payload, binder with
                     | Some pl, Some x =>
                         XOk (eval_block (set_nextb (mkFrame T VS BS NBk U) (if N.eqb x underscore then [] else [(x, pl)])) um body) []
                     | None, None => XOk (eval_block (set_nextb (mkFrame T VS BS NBk U) []) um body) []
                     | _, _ => match_cases p (mkFrame T VS BS NBk U) um spos ty idx payload cases
                     end
                else match_cases p (mkFrame T VS BS NBk U) um spos ty idx payload cases)).
  { intros t i. destruct (N.eqb ty t && N.eqb idx i); [|exact IH].
    destruct payload as [pl|], binder as [x|]; try exact IH; unfold set_nextb; cbn [todo vals blocks nextb uses]; apply BLK.
    - destruct (N.eqb x underscore); [constructor|]. constructor; [exact PL|constructor].
    - constructor. }
  destruct pv; try exact I; apply HIT.
Qed.

Definition step_ok (p : prog) (s : estate) (e : expr) : Prop :=
  forall t VS BS NBk U, frame_ok false 0 (mkFrame ((s, e) :: t) VS BS NBk U) ->
    xres_ok (mkFrame ((s, e) :: t) VS BS NBk U) (exec p (mkFrame t VS BS NBk U) s e).

Lemma not_wf_ok p s e : wf e = false -> step_ok p s e.
Proof. intros N t VS BS NBk U F. apply frame_ok_entry in F. destruct F as [We _]. congruence. Qed.

Lemma value_ok s e v t VS BS NBk U out :
  frame_ok false 0 (mkFrame ((s, e) :: t) VS BS NBk U) ->
  eff s e = Some (0, uu e) -> entry_pops s e = false -> cfv v ->
  xres_ok (mkFrame ((s, e) :: t) VS BS NBk U) (XOk (push_val_if (eused e) (mkFrame t VS BS NBk U) v) out).
Proof.
  intros F EF EP CV. destruct (frame_ok_entry F) as (_ & BB & NB & R).
  rewrite EF, EP in R. destruct R as (_ & V & R). now apply ok_push.
Qed.

(* the entry goes back in state s', in which it will pop its subexpressions
   `items`, pushed to be evaluated first *)
Lemma items_ok s s' e items c pr t VS BS NBk U out :
  frame_ok false 0 (mkFrame ((s, e) :: t) VS BS NBk U) ->
  eff s e = Some (c, pr) -> eff s' e = Some (c + length items, pr) -> entry_pops s' e = false -> AU items ->
  xres_ok (mkFrame ((s, e) :: t) VS BS NBk U)
    (XOk (fold_left (fun acc it => push_todo acc SNot it) items (mkFrame ((s', e) :: t) VS BS NBk U)) out).
Proof.
  intros F EF EF' EP A. apply frame_run_rest in F. cbn [todo vals blocks nextb] in F.
  destruct F as (R & V & BB & NB). rewrite Nat.add_0_r in R.
  apply rest_ok_uncons in R. destruct R as (We & c0 & pr0 & EF0 & L & R).
  rewrite EF in EF0. inversion EF0; subst c0 pr0.
  rewrite fold_push_todo_eq. unfold set_todo. cbn [todo vals blocks nextb uses xres_ok].
  split; [|reflexivity]. apply ok_frame; auto.
  apply rest_ok_fresh; [now apply AU_rev|]. rewrite rev_length.
  eapply rest_ok_mono; [| |exact (rest_ok_cons s' e t _ pr _ _ We EF' R)]; [lia|rewrite EP; cbn [binc]; lia].
Qed.

Lemma pop_block_tl T VS BS NBk U t k :
  rest_ok t k (length (tl BS)) -> pop_block (mkFrame T VS BS NBk U) = Some (mkFrame T VS (tl BS) NBk U).
Proof.
  intros (_ & _ & B). unfold pop_block. cbn [blocks].
  destruct BS as [|b0 [|b1 bs]]; cbn [tl length] in B; try lia. reflexivity.
Qed.
Arguments pop_block_tl {T VS BS NBk U t k}.

Lemma int_ok p m z s : step_ok p s (EInt m z).
Proof.
  intros t VS BS NBk U F.
  apply (value_ok s (EInt m z)); [exact F|reflexivity|now destruct s as [|[]|]|reflexivity].
Qed.

Lemma str_ok p m x s : step_ok p s (EStr m x).
Proof.
  intros t VS BS NBk U F.
  apply (value_ok s (EStr m x)); [exact F|reflexivity|now destruct s as [|[]|]|reflexivity].
Qed.

Lemma var_ok p m x s : globals_ok p = true -> step_ok p s (EVar m x).
Proof.
  intros GO t VS BS NBk U F. cbn [exec].
  destruct (get_var p (mkFrame t VS BS NBk U) x) as [v|] eqn:G; [|exact I].
  apply (value_ok s (EVar m x)); [exact F|reflexivity|now destruct s as [|[]|]|].
  destruct (frame_ok_entry F) as (_ & BB & _). eapply get_var_cf; [exact GO| |exact G]. exact BB.
Qed.

Lemma bin_done_ok p m o l r : step_ok p SDone (EBin m o l r).
Proof.
  intros t VS BS NBk U F. destruct (frame_ok_entry F) as (_ & BB & NB & R).
  cbn [exec eff entry_pops] in *. unfold eval_binop. cbn [vals set_vals todo blocks nextb uses].
  destruct VS as [|rv [|lv vs]]; cbn [pop_n] in R; try contradiction. destruct R as (_ & Vs & R).
  pose proof (fun v CV => ok_push (used m) v t vs BS NBk U CV R Vs BB NB) as PUSH.
  destruct o.
  - destruct (int_of lv); [|exact I]. destruct (int_of rv); [|exact I].
    pose proof (int_arm_no_panic o z z0) as NP.
    destruct (arm_sem true (int_arm o) z z0); try exact I; [apply PUSH; reflexivity|apply PUSH; apply cfv_bool|contradiction].
  - apply PUSH, cfv_bool.
  - apply PUSH, cfv_bool.
  - destruct (as_bool lv); [|exact I]. destruct (as_bool rv); [|exact I]. apply PUSH, cfv_bool.
  - destruct (as_bool lv); [|exact I]. destruct (as_bool rv); [|exact I]. apply PUSH, cfv_bool.
  - destruct (str_of lv); [|exact I]. destruct (str_of rv); [|exact I]. apply PUSH. reflexivity.
Qed.

Lemma bin_ok p m o l r s : step_ok p s (EBin m o l r).
Proof.
  intros t VS BS NBk U F. pose proof (frame_ok_entry F) as (We & _).
  cbn [wf] in We. apply andb_prop in We as [We Wr]. apply andb_prop in We as [We Ur]. apply andb_prop in We as [Ul Wl].
  destruct s as [|b|]; [| |now apply bin_done_ok].
  all: apply (items_ok _ SDone _ [r; l] 0 (uu (EBin m o l r))); auto; repeat constructor; assumption.
Qed.

Lemma let_ok p m x rhs s : step_ok p s (ELet m x rhs).
Proof.
  intros t VS BS NBk U F. pose proof (frame_ok_entry F) as (We & BB & NB & R).
  cbn [wf] in We. apply andb_prop in We. destruct We as [Ur Wr].
  destruct s as [|b|]; cbn [exec].
  1, 2: apply (items_ok _ SDone _ [rhs] 0 (uu (ELet m x rhs))); auto using AU_one.
  cbn [eff entry_pops] in R. unfold pop_val. cbn [vals].
  destruct VS as [|v vs]; cbn [pop_n] in R; [contradiction|]. destruct R as (Vv & Vs & R). inversion Vv; subst.
  unfold set_vals, set_blocks. cbn [todo vals blocks nextb uses].
  apply ok_push; auto using add_new_cf; [reflexivity|now rewrite add_new_length].
Qed.

Lemma assign_ok p m x xpos rhs s : step_ok p s (EAssign m x xpos rhs).
Proof.
  intros t VS BS NBk U F. pose proof (frame_ok_entry F) as (We & BB & NB & R).
  cbn [wf] in We. apply andb_prop in We. destruct We as [Ur Wr].
  destruct s as [|b|]; cbn [exec].
  1, 2: apply (items_ok _ SDone _ [rhs] 0 (uu (EAssign m x xpos rhs))); auto using AU_one.
  cbn [eff entry_pops blocks] in *.
  destruct (lookup_blocks x BS) as [w|] eqn:LK; [|exact I].
  unfold pop_val. cbn [vals].
  destruct VS as [|v vs]; cbn [pop_n] in R; [contradiction|]. destruct R as (Vv & Vs & R). inversion Vv; subst.
  unfold set_vals, set_blocks. cbn [todo vals blocks nextb uses].
  destruct (set_existing_some x v _ _ LK) as [bs' SE]. rewrite SE.
  apply ok_push; eauto using set_existing_cf; [reflexivity|now rewrite (set_existing_length _ _ _ _ SE)].
Qed.

Lemma upd_ok p m u x xpos rhs s : globals_noint p = true -> step_ok p s (EUpd m u x xpos rhs).
Proof.
  intros GN t VS BS NBk U F. pose proof (frame_ok_entry F) as (We & BB & NB & R).
  cbn [wf] in We. apply andb_prop in We. destruct We as [Ur Wr].
  destruct s as [|b|]; cbn [exec].
  1, 2: apply (items_ok _ SDone _ [rhs] 0 (uu (EUpd m u x xpos rhs))); auto using AU_one.
  cbn [eff entry_pops] in R.
  destruct (get_var p _ x) as [cur|] eqn:G; [|exact I].
  destruct (int_of cur) as [a|] eqn:IC; [|exact I]. apply int_of_some in IC. subst cur.
  unfold pop_val. cbn [vals].
  destruct VS as [|rv vs]; cbn [pop_n] in R; [contradiction|]. destruct R as (_ & Vs & R).
  destruct (int_of rv) as [b|]; [|exact I].
  destruct (upd_arm_val u a b) as [z ->].
  (* the variable is a local one: no namespace value is an Int *)
  unfold get_var in G. cbn [blocks] in G.
  destruct (lookup_blocks x BS) as [w|] eqn:LK; [|exfalso; eapply globals_noint_spec; eassumption].
  unfold set_vals, set_blocks. cbn [todo vals blocks nextb uses].
  destruct (set_existing_some x (VInt z) _ _ LK) as [bs' SE]. rewrite SE.
  apply ok_push; auto; [reflexivity|now rewrite (set_existing_length _ _ _ _ SE)|].
  exact (set_existing_cf x (VInt z) _ _ BB eq_refl SE).
Qed.

Lemma if_ok p m c tb el s : step_ok p s (EIf m c tb el).
Proof.
  intros t VS BS NBk U F. pose proof (frame_ok_entry F) as (We & BB & NB & R).
  pose proof We as Wif. rewrite wf_if in We.
  apply andb_prop in We as [We Wel]. apply andb_prop in We as [We Wt]. apply andb_prop in We as [Uc Wc].
  destruct s as [|b|]; cbn [exec].
  - apply (items_ok _ (SPart BWill) _ [c] 0 (uu (EIf m c tb el))); auto using AU_one.
  - replace (entry_pops (SPart b) (EIf m c tb el)) with false in R by now destruct b.
    cbn [eff] in R. unfold pop_val. cbn [push_todo vals].
    destruct VS as [|cv vs]; cbn [pop_n] in R; [contradiction|]. destruct R as (_ & Vs & R).
    destruct (as_bool cv) as [bb|]; [|exact I].
    unfold set_vals, set_blocks. cbn [todo vals blocks nextb uses].
    (* the branch leaves its value if there is an else and the value is used;
       otherwise the SDone step leaves Unit if the value is used *)
    assert (R' : rest_ok ((SDone, EIf m c tb el) :: t) (length vs + binc (used m && is_some el)) (S (length BS))).
    { apply (rest_ok_cons SDone (EIf m c tb el) t 0 _ (length vs + binc (used m && is_some el)) (length BS) Wif eq_refl).
      eapply rest_ok_mono; [|reflexivity|exact R]. unfold uu, eused. cbn [emeta]. destruct (used m), el; cbn; lia. }
    destruct bb; [now apply ok_block|]. destruct el as [eb|].
    + apply ok_block; auto. now rewrite andb_true_r.
    + rewrite andb_false_r, Nat.add_0_r in R'. split; [|reflexivity].
      apply ok_frame; auto. constructor; [constructor|assumption].
  - cbn [eff pop_n entry_pops] in R. destruct R as (_ & V & R).
    rewrite (pop_block_tl R). apply ok_push; auto using Forall_tl; [reflexivity|].
    destruct el; exact R.
Qed.

Lemma while_ok p m c body s : step_ok p s (EWhile m c body).
Proof.
  intros t VS BS NBk U F. pose proof (frame_ok_entry F) as (We & BB & NB & R).
  pose proof We as Wwh. rewrite wf_while in We. apply andb_prop in We as [We Wb]. apply andb_prop in We as [Uc Wc].
  destruct s as [|[]|]; cbn [exec eff pop_n entry_pops] in *; try contradiction.
  - apply (items_ok _ (SPart BWill) _ [c] 0 (uu (EWhile m c body))); auto using AU_one.
  - unfold pop_val. cbn [vals].
    destruct VS as [|cv vs]; cbn [pop_n] in R; [contradiction|]. destruct R as (_ & Vs & R).
    unfold set_vals, push_todo. cbn [todo vals blocks nextb uses].
    destruct (as_bool cv) as [[]|]; [| |exact I].
    + apply ok_block; auto. rewrite Nat.add_0_r.
      exact (rest_ok_cons (SPart BDoneRun) (EWhile m c body) t 0 _ _ _ Wwh eq_refl R).
    + apply ok_push; auto; [reflexivity|].
      apply (rest_ok_cons SDone (EWhile m c body) t 0 0 _ _ Wwh eq_refl). now rewrite Nat.add_0_r.
  - (* the body is done: as at the start, without the body's block *)
    destruct R as (_ & V & R). rewrite (pop_block_tl R).
    apply (items_ok SNot (SPart BWill) (EWhile m c body) [c] 0 (uu (EWhile m c body)) t VS (tl BS) NBk U []);
      auto using AU_one.
    apply ok_frame; auto using Forall_tl.
    exact (rest_ok_cons SNot (EWhile m c body) t 0 _ _ _ Wwh eq_refl R).
  - destruct R as (_ & V & R). rewrite Nat.add_0_r in R. split; [|reflexivity]. now apply ok_frame.
Qed.

Lemma return_ok p m oe s : step_ok p s (EReturn m oe).
Proof.
  intros t VS BS NBk U F. pose proof (frame_ok_entry F) as (We & BB & NB & R).
  assert (PUSH : eff s (EReturn m oe) = Some (0, uu (EReturn m oe)) ->
            xres_ok (mkFrame ((s, EReturn m oe) :: t) VS BS NBk U)
              (let f1 := push_todo (mkFrame t VS BS NBk U) SDone (EReturn m oe) in
               match oe with Some x => XOk (push_todo f1 SNot x) [] | None => XOk (push_val f1 vunit) [] end)).
  { intros EF. destruct oe as [x|]; cbn zeta.
    - rewrite wf_return_some in We. apply andb_prop in We. destruct We as [Ux Wx].
      apply (items_ok _ SDone _ [x] 0 (uu (EReturn m (Some x)))); auto using AU_one.
    - rewrite EF in R. replace (entry_pops s (EReturn m None)) with false in R by now destruct s as [|[]|].
      destruct R as (_ & V & R). split; [|reflexivity]. apply ok_frame; auto using cfv_unit.
      exact (rest_ok_cons SDone (EReturn m None) t 1 _ _ _ We eq_refl R). }
  destruct s as [|b|]; cbn [exec]; [apply PUSH; reflexivity..|].
  cbn [eff entry_pops todo blocks] in *.
  destruct VS as [|v vs]; cbn [pop_n] in R; [contradiction|]. destruct R as (Vv & Vs & _ & _ & B). inversion Vv; subst.
  destruct (return_unwind_some t BS B) as (bs' & -> & L' & P').
  unfold set_blocks, set_todo. cbn [vals nextb uses]. split; [|reflexivity].
  apply ok_frame; [apply rest_ok_nil; [cbn; lia|exact L']|auto|exact (P' _ BB)|exact NB].
Qed.

Lemma list_ok p m l s : step_ok p s (EList m l).
Proof.
  intros t VS BS NBk U F. pose proof (frame_ok_entry F) as (We & BB & NB & R).
  rewrite wf_list in We. apply wf_all_used_AU in We.
  destruct s as [|b|]; cbn [exec].
  1, 2: now apply (items_ok _ SDone _ l 0 (uu (EList m l))).
  cbn [eff entry_pops vals] in *.
  destruct (pop_n (length l) VS) as [[vl r]|]; [|contradiction]. destruct R as (Vl & Vr & R).
  apply ok_push; auto using cfv_list.
Qed.

Lemma tuple_ok p m l s : step_ok p s (ETuple m l).
Proof.
  intros t VS BS NBk U F. pose proof (frame_ok_entry F) as (We & BB & NB & R).
  rewrite wf_tuple in We. apply wf_all_used_AU in We.
  destruct s as [|b|]; cbn [exec].
  1, 2: now apply (items_ok _ SDone _ l 0 (uu (ETuple m l))).
  cbn [eff entry_pops vals] in *.
  destruct (pop_n (length l) VS) as [[vl r]|]; [|contradiction]. destruct R as (Vl & Vr & R).
  apply ok_push; auto using cfv_tuple.
Qed.

Lemma uu_meta e : uu e = binc (used (emeta e)).
Proof. reflexivity. Qed.

Lemma call_done_ok p m fe args : wf_prog p = true -> step_ok p SDone (ECall m fe args).
Proof.
  intros WP t VS BS NBk U F. apply frame_run_rest in F. cbn [todo vals blocks nextb] in F.
  destruct F as (R & V & BB & NB). apply rest_ok_uncons in R. destruct R as (_ & c & pr & EF & L & R).
  cbn [eff] in EF. inversion EF; subst c pr. rewrite Nat.add_0_r in L, R.
  cbn [exec]. unfold eval_call. cbn [vals].
  (* the arguments lie above the called value *)
  destruct (pop_n_ok (length args) VS ltac:(lia)) as (argv & rest & -> & LL & ->).
  rewrite app_length in L, R. destruct rest as [|recv rest']; [cbn [length] in L; lia|].
  apply Forall_app in V. destruct V as [Vargv Vr]. inversion Vr as [|? ? Vrecv Vrest]; subst.
  unfold set_vals. cbn [todo vals blocks nextb uses].
  assert (R' : rest_ok t (length rest' + binc (used m)) (length BS)).
  { eapply rest_ok_mono; [| |exact R]; [rewrite uu_meta|]; cbn; lia. }
  pose proof (fun v CV => ok_push (used m) v t rest' BS NBk U CV R' Vrest BB NB) as PUSH.
  assert (ONE : Nat.eqb (length args) 1 = true -> exists a, argv = [a] /\ cfv a).
  { intros E. apply Nat.eqb_eq in E. rewrite E in LL. destruct argv as [|a [|a2 argv]]; try discriminate.
    exists a. split; [reflexivity|now inversion Vargv]. }
  assert (ARERR : forall k (f0 : frame), xres_ok f0 (if Nat.ltb k (length args)
                                       then exn (nth_pos args k (pstart m, pend m)) else exn (pstart m, pend m))).
  { intros k f0. destruct (Nat.ltb k (length args)); exact I. }
  destruct recv; try exact I.
  - discriminate Vrecv.
  - destruct (assoc name (funs p)) as [fd|] eqn:AF; [|exact I].
    destruct (Nat.eqb (length (fparams fd)) (length args)); [|apply ARERR].
    split; [|split; [reflexivity|]].
    + apply frame_run_rest. cbn [new_frame todo vals blocks nextb uses]. auto.
    + apply callee_ok; [eapply wf_prog_body; eassumption|now apply param_block_cf].
  - destruct (Nat.eqb (length args) 1) eqn:E1; [|apply ARERR].
    destruct (ONE eq_refl) as (a & -> & Ca). apply PUSH. exact Ca.
  - destruct (Nat.eqb (length args) 1) eqn:E1; [|apply ARERR].
    destruct (ONE eq_refl) as (a & -> & Ca).
    destruct b; [destruct (str_of a); [apply PUSH; reflexivity|exact I]..|apply PUSH; reflexivity].
Qed.

Lemma call_ok p m fe args s : wf_prog p = true -> step_ok p s (ECall m fe args).
Proof.
  intros WP t VS BS NBk U F. pose proof (frame_ok_entry F) as (We & _).
  rewrite wf_call in We. apply andb_prop in We as [We Wa]. apply andb_prop in We as [Uf Wf].
  destruct s as [|b|]; [| |now apply call_done_ok].
  - apply (items_ok _ (SPart BNot) _ [fe] 0 (uu (ECall m fe args))); auto using AU_one.
  - apply (items_ok _ SDone _ args 1 (uu (ECall m fe args))); auto using wf_all_used_AU.
Qed.

Lemma paren_ok p m inner s : step_ok p s (EParen m inner).
Proof.
  intros t VS BS NBk U F. destruct (frame_ok_entry F) as (We & BB & NB & R).
  cbn [wf] in We. apply andb_prop in We. destruct We as [Ue Wi]. apply eqb_prop in Ue.
  replace (entry_pops s (EParen m inner)) with false in R by now destruct s as [|[]|].
  cbn [eff pop_n exec] in *. destruct R as (_ & V & R). split; [|reflexivity].
  apply ok_frame; auto. apply rest_ok_new; [exact Wi|]. unfold uu in *. now rewrite Ue.
Qed.

Lemma match_ok p m sc cases s : step_ok p s (EMatch m sc cases).
Proof.
  intros t VS BS NBk U F. pose proof (frame_ok_entry F) as (We & BB & NB & R).
  pose proof We as Wm. rewrite wf_match in We. apply andb_prop in We as [We Wcs]. apply andb_prop in We as [Usc Wsc].
  destruct s as [|b|]; cbn [exec].
  - apply (items_ok _ (SPart BWill) _ [sc] 0 (uu (EMatch m sc cases))); auto using AU_one.
  - replace (entry_pops (SPart b) (EMatch m sc cases)) with false in R by now destruct b.
    cbn [eff] in R. unfold pop_val. cbn [push_todo vals].
    destruct VS as [|sv vs]; cbn [pop_n] in R; [contradiction|].
    destruct R as (Vv & Vs & R). inversion Vv as [|? ? Cv _]; subst.
    destruct sv; try exact I. unfold set_vals. cbn [todo vals blocks nextb uses].
    apply match_cases_ok; auto.
    + apply (rest_ok_cons SDone (EMatch m sc cases) t 0 0 (length vs + binc (used m)) (length BS) Wm eq_refl).
      now rewrite Nat.add_0_r.
    + unfold cfv in Cv. cbn [closure_free] in Cv. destruct payload; [exact Cv|exact I].
  - cbn [eff pop_n entry_pops] in R. destruct R as (_ & V & R).
    rewrite (pop_block_tl R). rewrite Nat.add_0_r in R.
    split; [|reflexivity]. apply ok_frame; auto using Forall_tl.
Qed.

Lemma exec_ok p f es e t : prog_ok p -> todo f = (es, e) :: t -> frame_ok false 0 f ->
  xres_ok f (exec p (set_todo f t) es e).
Proof.
  intros (WP & GO & GN) ET. destruct f as [T VS BS NBk U]. cbn [todo] in ET. subst T.
  revert t VS BS NBk U. change (step_ok p es e).
  destruct e; try (apply not_wf_ok; reflexivity).
  - apply int_ok.
  - apply str_ok.
  - now apply var_ok.
  - apply bin_ok.
  - apply let_ok.
  - apply assign_ok.
  - now apply upd_ok.
  - apply if_ok.
  - apply while_ok.
  - apply return_ok.
  - apply list_ok.
  - apply tuple_ok.
  - now apply call_ok.
  - apply paren_ok.
  - apply match_ok.
Qed.

Theorem evaluator_keeps_discipline_lemma p : prog_ok p -> evaluator_keeps_discipline p.
Proof.
  intros PO s R. unfold step.
  destruct (stack s) as [|f rest] eqn:ES; [exact R|].
  destruct R as [F C].
  destruct (todo f) as [|[es e] t] eqn:ET.
  - destruct rest as [|caller rest'].
    + destruct (frame_done f F ET) as (v & vs & -> & _ & F'). exact F'.
    + destruct (frame_return f caller rest' (conj F C) ET) as (v & vs & -> & R'). exact R'.
  - destruct (interrupted s); [exact I|].
    destruct (opt_le (tick_limit s) (ticks s + 1)); [exact I|].
    destruct (opt_lt (stack_limit s) (N.of_nat (length (f :: rest)))); [exact I|].
    pose proof (exec_ok p f es e t PO ET F) as X.
    destruct (exec p (set_todo f t) es e) as [f' pr|f' callee|er| |]; try exact I; try contradiction.
    + destruct X as [F' U]. cbn [with_stack stack stack_run]. split; [exact F'|]. rewrite U. exact C.
    + destruct X as (F' & U & FC). cbn [with_stack stack stack_run callers_ok].
      split; [exact FC|]. split; [exact F'|]. rewrite U. exact C.
Qed.

Theorem machine_no_crash_lemma p : prog_ok p -> forall s, stack_run (stack s) -> step p s <> Crashed.
Proof.
  intros PO s R H. pose proof (evaluator_keeps_discipline_lemma p PO s R) as K. rewrite H in K. exact K.
Qed.

Lemma init_run exprs tl sl : wf_all_used exprs = true -> stack_run (stack (init_state exprs tl sl)).
Proof.
  intros W. split; [|exact I]. apply ok_frame; [|repeat constructor..].
  rewrite <- (app_nil_r (map _ exprs)). apply rest_ok_fresh; [now apply wf_all_used_AU|].
  apply rest_ok_nil; cbn; lia.
Qed.

Lemma run_ok p : prog_ok p -> forall n s, stack_run (stack s) -> run p n s <> RCrashed.
Proof.
  intros PO. induction n as [|n IH]; intros s R; cbn [run]; [discriminate|].
  pose proof (evaluator_keeps_discipline_lemma p PO s R) as K.
  destruct (step p s) as [s'|v s'|er s'| |]; try discriminate; [|contradiction].
  apply IH. exact K.
Qed.

Theorem run_no_crash_lemma p exprs : prog_ok p -> wf_all_used exprs = true ->
  forall n, run p n (init_state exprs None None) <> RCrashed.
Proof. intros PO W n. apply run_ok; [exact PO|now apply init_run]. Qed.
