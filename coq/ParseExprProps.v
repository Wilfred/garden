(* The fuelled expression parser of ParseExpr.v: more fuel never changes an answer (fuel_mono); with the shape
   parser.rs has, a printed tree parses back to itself (C33) and operator chains nest to the left (C03). *)
From Coq Require Import ZArith NArith Bool List Lia.
From Garden Require Import ParseExpr.
Import ListNotations.

(* "For every large enough fuel": the form of the round-trip results about the fuelled parsers, here and in
   ParseFullProps.v.  The round-trip proofs combine such facts through the ev_* lemmas below and never exhibit
   the bound f0. *)
Definition eventually (Q : nat -> Prop) : Prop := exists f0, forall f, f0 <= f -> Q f.

Lemma ev_all (Q : nat -> Prop) : (forall f, Q f) -> eventually Q.
Proof. intros H. exists 0. auto. Qed.

Lemma ev_S (Q : nat -> Prop) : eventually (fun f => Q (S f)) -> eventually Q.
Proof. intros (f0 & H). exists (S f0). intros [|f] Hf; [lia|]. apply H. lia. Qed.

Lemma ev_shift (Q : nat -> Prop) : eventually Q -> eventually (fun f => Q (S f)).
Proof. intros (f0 & H). exists f0. intros f Hf. apply H. lia. Qed.

Lemma ev_and (Q1 Q2 : nat -> Prop) : eventually Q1 -> eventually Q2 -> eventually (fun f => Q1 f /\ Q2 f).
Proof. intros (f1 & H1) (f2 & H2). exists (Nat.max f1 f2). intros f Hf. split; [apply H1|apply H2]; lia. Qed.

Lemma ev_mono (Q Q' : nat -> Prop) : eventually Q -> (forall f, Q f -> Q' f) -> eventually Q'.
Proof. intros (f0 & H) HQ. exists f0. auto. Qed.

Lemma ev_ge n : eventually (fun f => n < f).
Proof. exists (S n). auto. Qed.

Arguments ev_and {Q1 Q2}.
Arguments ev_mono {Q Q'}.

Lemma parse_S sh f a ts :
  parse sh (S f) a ts = match atom sh f ts with Some (e, ts1) => ploop sh f a e ts1 | None => None end.
Proof. reflexivity. Qed.

Lemma atom_S sh f ts :
  atom sh (S f) ts =
  match ts with
  | TInt z :: r => Some (PInt z, r)
  | TVar x :: r => Some (PVar x, r)
  | TLP :: r => match parse sh f true r with Some (e, TRP :: r') => Some (PParen e, r') | _ => None end
  | _ => None
  end.
Proof. reflexivity. Qed.

Lemma ploop_S sh f a e ts :
  ploop sh (S f) a e ts =
  match ts with
  | TOp o :: r =>
      if a || negb (guarded_by_flag sh) then
        match parse sh f (negb (rhs_stops_at_operators sh)) r with
        | Some (rhs, r') =>
            if rotates_once sh then
              match rhs with
              | PBin o2 l2 r2 => ploop sh f a (PBin o2 (PBin o e l2) r2) r'
              | _ => ploop sh f a (PBin o e rhs) r'
              end
            else ploop sh f a (PBin o e rhs) r'
        | None => None
        end
      else Some (e, ts)
  | _ => Some (e, ts)
  end.
Proof. reflexivity. Qed.

Lemma fuel_mono sh : forall f f', f <= f' ->
  (forall a ts r, parse sh f a ts = Some r -> parse sh f' a ts = Some r) /\
  (forall ts r, atom sh f ts = Some r -> atom sh f' ts = Some r) /\
  (forall a e ts r, ploop sh f a e ts = Some r -> ploop sh f' a e ts = Some r).
Proof.
  induction f as [|f IH]; intros f' Hle; [repeat split; intros; discriminate|].
  destruct f' as [|f']; [lia|]. destruct (IH f' ltac:(lia)) as (IHp & IHa & IHl). repeat split.
  - intros a ts r. rewrite (parse_S sh f), (parse_S sh f').
    destruct (atom sh f ts) as [[e ts1]|] eqn:E; [|discriminate]. rewrite (IHa _ _ E). apply IHl.
  - intros ts r. rewrite (atom_S sh f), (atom_S sh f').
    destruct ts as [|[z|x|o| | |] r0]; auto.
    destruct (parse sh f true r0) as [[e r1]|] eqn:E; [|discriminate]. now rewrite (IHp _ _ _ E).
  - intros a e ts r. rewrite (ploop_S sh f), (ploop_S sh f').
    destruct ts as [|[z|x|o| | |] r0]; auto.
    destruct (a || negb (guarded_by_flag sh)); auto.
    destruct (parse sh f (negb (rhs_stops_at_operators sh)) r0) as [[rhs r1]|] eqn:E; [|discriminate].
    rewrite (IHp _ _ _ E). destruct (rotates_once sh); [destruct rhs|]; apply IHl.
Qed.

Lemma parse_mono sh f f' a ts r : f <= f' -> parse sh f a ts = Some r -> parse sh f' a ts = Some r.
Proof. intros H. apply (fuel_mono sh f f' H). Qed.
Lemma atom_mono sh f f' ts r : f <= f' -> atom sh f ts = Some r -> atom sh f' ts = Some r.
Proof. intros H. apply (fuel_mono sh f f' H). Qed.
Lemma ploop_mono sh f f' a e ts r : f <= f' -> ploop sh f a e ts = Some r -> ploop sh f' a e ts = Some r.
Proof. intros H. apply (fuel_mono sh f f' H). Qed.

Theorem parse_deterministic sh f f' a ts r r' :
  parse sh f a ts = Some r -> parse sh f' a ts = Some r' -> r = r'.
Proof.
  intros H H'. destruct (Nat.le_ge_cases f f') as [L0|L0].
  - rewrite (parse_mono sh f f' a ts r L0 H) in H'. congruence.
  - rewrite (parse_mono sh f' f a ts r' L0 H') in H. congruence.
Qed.

(* the shape parser.rs has (ParseExprTie.current_is_good) *)
Local Notation P := (parse good_shape).
Local Notation A := (atom good_shape).
Local Notation L := (ploop good_shape).

Lemma loop_step f acc o r :
  L (S f) true acc (TOp o :: r) =
  match P f false r with Some (rhs, r') => L f true (PBin o acc rhs) r' | None => None end.
Proof. reflexivity. Qed.

Lemma loop_false f e ts : L (S f) false e ts = Some (e, ts).
Proof. destruct ts as [|[] r]; reflexivity. Qed.

Lemma loop_stop f e ts : stops ts = true -> L (S f) true e ts = Some (e, ts).
Proof. destruct ts as [|[] r]; try discriminate; reflexivity. Qed.

Definition atom_ok (a : pexpr) : Prop := forall rest, eventually (fun f => A f (print a ++ rest) = Some (a, rest)).

Lemma operand_then_loop a allow rest v : atom_ok a ->
  eventually (fun f => L f allow a rest = Some v) -> eventually (fun f => P f allow (print a ++ rest) = Some v).
Proof.
  intros Ha Hl. apply ev_S, (ev_mono (ev_and (Ha rest) Hl)). intros f [H1 H2]. now rewrite parse_S, H1.
Qed.

(* The second part is the invariant of the loop: reading the text of e
   and going on with what follows is entering the loop with e as the expression so far.  For `l op r` this is the
   same fact about l, one turn of the loop, and r read as an operand. *)
Theorem roundtrip e : wf e = true ->
  (is_operand e = true -> atom_ok e) /\
  (forall rest v, eventually (fun f => L f true e rest = Some v) -> eventually (fun f => P f true (print e ++ rest) = Some v)).
Proof.
  induction e as [z|x|o l IHl r IHr|e' IH]; cbn [wf]; intros W.
  - assert (Ha : atom_ok (PInt z)) by (intros rest; apply ev_S, ev_all; reflexivity).
    split; [trivial|]. intros rest v. now apply operand_then_loop.
  - assert (Ha : atom_ok (PVar x)) by (intros rest; apply ev_S, ev_all; reflexivity).
    split; [trivial|]. intros rest v. now apply operand_then_loop.
  - apply andb_true_iff in W as [W Or]. apply andb_true_iff in W as [Wl Wr].
    split; [discriminate|]. intros rest v Hl.
    cbn [print]. rewrite <- app_assoc. apply (IHl Wl). cbn [app].
    assert (Hr : eventually (fun f => P f false (print r ++ rest) = Some (r, rest))).
    { apply operand_then_loop; [now apply (IHr Wr)|]. apply ev_S, ev_all. intros f. apply loop_false. }
    apply ev_S, (ev_mono (ev_and Hr Hl)). intros f [H1 H2]. now rewrite loop_step, H1.
  - assert (Ha : atom_ok (PParen e')).
    { intros rest. cbn [print app]. rewrite <- app_assoc. cbn [app].
      assert (He : eventually (fun f => P f true (print e' ++ TRP :: rest) = Some (e', TRP :: rest))).
      { apply (IH W). apply ev_S, ev_all. intros f. now apply loop_stop. }
      apply ev_S, (ev_mono He). intros f H. now rewrite atom_S, H. }
    split; [trivial|]. intros rest v. now apply operand_then_loop.
Qed.

(* C33 (expression fragment): printing a tree and parsing it gives the same tree *)
Theorem parse_print e : wf e = true ->
  exists f0, forall f, f0 <= f -> parse good_shape f true (print e) = Some (e, []).
Proof.
  intros W. rewrite <- (app_nil_r (print e)). apply (roundtrip e W). apply ev_S, ev_all. reflexivity.
Qed.

Lemma left_nest_wf_print rest :
  Forall (fun oa => is_operand (snd oa) = true /\ wf (snd oa) = true) rest ->
  forall y, wf y = true ->
  wf (left_nest y rest) = true /\ print (left_nest y rest) = print y ++ flat rest.
Proof.
  induction 1 as [|[o a] c [Oa Wa] _ IH]; intros y Wy.
  - cbn. now rewrite app_nil_r.
  - cbn [left_nest fold_left fst snd flat] in *.
    assert (W2 : wf (PBin o y a) = true) by (cbn [wf]; now rewrite Wy, Wa).
    destruct (IH _ W2) as [G1 G2]. split; [assumption|]. unfold left_nest in G2. rewrite G2. cbn [print].
    now rewrite <- app_assoc.
Qed.

(* C03: any chain of operands and operators parses to the left nest *)
Theorem chain_left_assoc x (rest : list (opk * pexpr)) :
  is_operand x = true -> wf x = true ->
  Forall (fun oa => is_operand (snd oa) = true /\ wf (snd oa) = true) rest ->
  exists f0, forall f, f0 <= f ->
    parse good_shape f true (print x ++ flat rest) = Some (left_nest x rest, []).
Proof.
  intros Ox Wx Fr.
  destruct (left_nest_wf_print rest Fr x Wx) as [W Pr]. rewrite <- Pr. now apply parse_print.
Qed.

Theorem paren_overrides x o1 y o2 z :
  is_operand x = true -> wf x = true -> wf y = true -> wf z = true -> is_operand z = true ->
  exists f0, forall f, f0 <= f ->
    parse good_shape f true (print x ++ TOp o1 :: TLP :: print y ++ TOp o2 :: print z ++ [TRP])
    = Some (PBin o1 x (PParen (PBin o2 y z)), []).
Proof.
  intros Ox Wx Wy Wz Oz.
  assert (W : wf (PBin o1 x (PParen (PBin o2 y z))) = true) by (cbn [wf]; rewrite Wx, Wy, Wz, andb_true_r; exact Oz).
  pose proof (parse_print _ W) as H. cbn [print] in H. rewrite <- app_assoc in H. exact H.
Qed.

(* the code as it was before the fix: a 4-operand chain is mis-grouped *)
Lemma old_shape_refuted :
  parse_top old_shape [TInt 10; TOp KSubtract; TInt 1; TOp KSubtract; TInt 1; TOp KSubtract; TInt 1]
  = Some (PBin KSubtract (PBin KSubtract (PInt 10) (PBin KSubtract (PInt 1) (PInt 1))) (PInt 1)).
Proof. vm_compute. reflexivity. Qed.
