(* Proofs about the eval-up-to model (MachineStop.v).  The stop machine makes
   the steps of the plain machine until it stops (step_stop_spec).  The
   evaluation of an expression of a fragment of the language is followed as a
   path of the stop machine over the continuation T below the expression's
   entry: it fails, or comes back to T with the expression's value pushed, or,
   for the target, stops there (frag_contracts); so a stop after the target is
   the first completion of its evaluation (stop_at_first_value). *)
From Coq Require Import ZArith NArith Bool List Lia.
From Garden Require Import Base.Int64 Arith gen.Tables Machine MachineInv MachineStop.
Import ListNotations.
Open Scope nat_scope.

Fixpoint iter_stop (t : N * N) (p : prog) (n : nat) (ss : sstate) : option sstate :=
  match n with
  | O => Some ss
  | S n' => match step_stop t p ss with ONext ss' => iter_stop t p n' ss' | _ => None end
  end.

Lemma pos_eqb_eq a b : pos_eqb a b = true <-> a = b.
Proof.
  unfold pos_eqb. destruct a as [a1 a2], b as [b1 b2]; cbn [fst snd]. rewrite andb_true_iff, !N.eqb_eq.
  split; [intros [-> ->]; reflexivity|intros H; inversion H; auto].
Qed.

Lemma after_ok_cases t cs s' f' es e :
  match after_ok t cs s' f' es e with
  | ONext ss' => ss' = mkS s' cs /\ (epos e = t -> done_after es e = false /\ is_for_part es e = false)
  | OStopped _ ss' => ss' = mkS s' cs /\ epos e = t
  | _ => False
  end.
Proof.
  unfold after_ok. destruct (pos_eqb (epos e) t) eqn:PE.
  - apply pos_eqb_eq in PE. destruct (done_after es e); [auto|]. destruct (is_for_part es e); auto.
  - split; [reflexivity|]. intros E. apply pos_eqb_eq in E. congruence.
Qed.

Lemma after_ok_inner t cs s' f' es e :
  done_after es e = false -> is_for_part es e = false -> after_ok t cs s' f' es e = ONext (mkS s' cs).
Proof. intros D F. unfold after_ok. rewrite D, F. destruct (pos_eqb (epos e) t); reflexivity. Qed.

Inductive step_kind (t : N * N) (p : prog) (ss ss' : sstate) : Prop :=
| K_same f rest f' :
    stack (base ss) = f :: rest -> stack (base ss') = f' :: rest -> callers ss' = callers ss ->
    step_kind t p ss ss'
| K_call f rest es e td f' callee :
    stack (base ss) = f :: rest -> todo f = (es, e) :: td ->
    exec p (set_todo f td) es e = XCall f' callee ->
    stack (base ss') = callee :: f' :: rest -> callers ss' = epos e :: callers ss ->
    step_kind t p ss ss'
| K_ret f caller rest' v :
    stack (base ss) = f :: caller :: rest' -> todo f = [] ->
    stack (base ss') = push_val_if (uses f) caller v :: rest' -> callers ss' = tl (callers ss) ->
    step_kind t p ss ss'.

(* the plain step that a stopping step replaces: either the same state (stop
   after an expression), or the frame return without the push to the caller *)
Definition stop_of_plain (s1 : state) (v : value) (ss' : sstate) : Prop :=
  base ss' = s1 \/
  (exists f caller rest',
      stack s1 = push_val_if (uses f) caller v :: rest' /\
      base ss' = with_stack s1 (caller :: rest') (ticks s1) (out s1) (interrupted s1)).

(* the two stopping steps: after an entry with the target span, in the state
   s1 the plain step leads to; or at the return of a frame whose caller id is
   the target, in the state before the return without the returning frame *)
Definition stop_shape (t : N * N) (ss : sstate) (v : value) (ss' : sstate) (s1 : state) : Prop :=
  match stack (base ss) with
  | f :: rest =>
      match todo f with
      | (_, e) :: _ => epos e = t /\ base ss' = s1 /\ callers ss' = callers ss
      | [] => exists caller rest' vs,
                rest = caller :: rest' /\ vals f = v :: vs /\ callers ss = t :: callers ss' /\
                stack (base ss') = caller :: rest' /\ stack s1 = push_val_if (uses f) caller v :: rest'
      end
  | [] => False
  end.

Lemma step_stop_spec t p ss :
  match step_stop t p ss with
  | ONext ss' => step p (base ss) = Next (base ss') /\ step_kind t p ss ss'
  | OStopped v ss' => exists s1, step p (base ss) = Next s1 /\ stop_of_plain s1 v ss' /\ stop_shape t ss v ss' s1
  | OFinished v s' => step p (base ss) = Done v s'
  | OFailed e ss' => step p (base ss) = Failed e (base ss')
  | OCrashed => step p (base ss) = Crashed
  | OUnsupported => step p (base ss) = Unsupported
  end.
Proof.
  unfold step_stop, step, stop_shape. destruct (stack (base ss)) as [|f rest] eqn:ST; [reflexivity|].
  destruct (todo f) as [|[es e] td] eqn:TD.
  - destruct rest as [|caller rest']; [destruct (vals f); reflexivity|].
    destruct (vals f) as [|v vs]; [reflexivity|].
    assert (RET : forall s' cs, stack s' = push_val_if (uses f) caller v :: rest' -> cs = tl (callers ss) ->
                  step_kind t p ss (mkS s' cs)).
    { intros s' cs S' C'. eapply K_ret; eauto. }
    destruct (callers ss) as [|c cs]; [split; [|apply RET]; reflexivity|].
    destruct (pos_eqb c t) eqn:PC; [|split; [|apply RET]; reflexivity].
    apply pos_eqb_eq in PC. subst c. eexists. split; [reflexivity|]. split.
    + right. exists f, caller, rest'. split; reflexivity.
    + exists caller, rest', vs. repeat split.
  - destruct (interrupted (base ss)); [reflexivity|].
    destruct (opt_le _ _); [reflexivity|].
    destruct (opt_lt _ _); [reflexivity|].
    destruct (exec p (set_todo f td) es e) as [f' pr|f' callee|er| |] eqn:EX; try reflexivity.
    + match goal with |- match after_ok ?t ?cs ?s' ?f' ?es ?e with _ => _ end =>
        pose proof (after_ok_cases t cs s' f' es e) as A; destruct (after_ok t cs s' f' es e) end;
        try contradiction; destruct A as [-> PE].
      * split; [reflexivity|]. eapply K_same; eauto; reflexivity.
      * eexists. split; [reflexivity|]. split; [now left|]. repeat split. exact PE.
    + split; [reflexivity|]. eapply K_call; eauto; reflexivity.
Qed.

Lemma plain_iter_add p : forall a b s,
  plain_iter p (a + b) s = match plain_iter p a s with Some s1 => plain_iter p b s1 | None => None end.
Proof.
  induction a as [|a IH]; intros b s; cbn [plain_iter Nat.add]; [reflexivity|].
  destruct (step p s); try reflexivity. apply IH.
Qed.

Lemma plain_iter_last p n s0 s s' :
  plain_iter p n s0 = Some s -> step p s = Next s' -> plain_iter p (S n) s0 = Some s'.
Proof. intros H ST. rewrite <- Nat.add_1_r, plain_iter_add, H. cbn [plain_iter]. now rewrite ST. Qed.

Lemma iter_stop_plain t p : forall n ss ss',
  iter_stop t p n ss = Some ss' -> plain_iter p n (base ss) = Some (base ss').
Proof.
  induction n as [|n IH]; intros ss ss' H; cbn [iter_stop plain_iter] in *.
  - inversion H; reflexivity.
  - pose proof (step_stop_spec t p ss) as P.
    destruct (step_stop t p ss); try discriminate. rewrite (proj1 P). now apply IH.
Qed.

Lemma iter_stop_add t p : forall a b ss,
  iter_stop t p (a + b) ss = match iter_stop t p a ss with Some s1 => iter_stop t p b s1 | None => None end.
Proof.
  induction a as [|a IH]; intros b ss; cbn [iter_stop Nat.add]; [reflexivity|].
  destruct (step_stop t p ss); try reflexivity. apply IH.
Qed.

Lemma iter_stop_prefix t p : forall a b ss y,
  iter_stop t p b ss = Some y -> a <= b -> exists x, iter_stop t p a ss = Some x /\ iter_stop t p (b - a) x = Some y.
Proof.
  intros a b ss y H L. replace b with (a + (b - a)) in H by lia. rewrite iter_stop_add in H.
  destruct (iter_stop t p a ss) as [x|]; [|discriminate]. exists x. split; [reflexivity|exact H].
Qed.

Lemma iter_stop_halt_unique t p : forall a b ss x y,
  iter_stop t p a ss = Some x -> iter_stop t p b ss = Some y ->
  (forall z, step_stop t p x <> ONext z) -> (forall z, step_stop t p y <> ONext z) -> a = b.
Proof.
  induction a as [|a IH]; intros [|b] ss x y Ha Hb Nx Ny; cbn [iter_stop] in *.
  - reflexivity.
  - injection Ha as <-. destruct (step_stop t p ss); try discriminate. destruct (Nx _ eq_refl).
  - injection Hb as <-. destruct (step_stop t p ss); try discriminate. destruct (Ny _ eq_refl).
  - destruct (step_stop t p ss); try discriminate. f_equal. exact (IH b _ x y Ha Hb Nx Ny).
Qed.

Lemma run_stop_stopped t p : forall fuel k ss n v ss',
  run_stop t p fuel k ss = TStopped n v ss' ->
  exists j spre, n = k + S j /\ iter_stop t p j ss = Some spre /\ step_stop t p spre = OStopped v ss'.
Proof.
  induction fuel as [|fuel IH]; intros k ss n v ss' H; cbn [run_stop] in H; [discriminate|].
  destruct (step_stop t p ss) as [s1|v1 s1|v1 s1|e1 s1| |] eqn:E; try discriminate.
  - apply IH in H. destruct H as (j & spre & -> & I & S1).
    exists (S j), spre. split; [lia|]. split; [|exact S1]. cbn [iter_stop]. now rewrite E.
  - inversion H; subst. exists 0, ss. split; [lia|]. split; [reflexivity|exact E].
Qed.

Lemma run_stop_last t p fuel ss n v ss' spre :
  run_stop t p fuel 0 ss = TStopped n v ss' -> iter_stop t p (n - 1) ss = Some spre ->
  exists j, n = S j /\ iter_stop t p j ss = Some spre /\ step_stop t p spre = OStopped v ss'.
Proof.
  intros H IS. apply run_stop_stopped in H. destruct H as (j & x & -> & I & S1). exists j.
  cbn [Nat.add] in IS. rewrite Nat.sub_1_r in IS. cbn [Nat.pred] in IS. rewrite I in IS. injection IS as <-. auto.
Qed.

Lemma run_stop_iter t p : forall j fuel k ss spre,
  iter_stop t p j ss = Some spre -> j <= fuel ->
  run_stop t p fuel k ss = run_stop t p (fuel - j) (k + j) spre.
Proof.
  induction j as [|j IH]; intros fuel k ss spre H L; cbn [iter_stop] in H.
  - inversion H; subst. now rewrite Nat.sub_0_r, Nat.add_0_r.
  - destruct fuel as [|fuel]; [lia|]. cbn [run_stop].
    destruct (step_stop t p ss); try discriminate.
    rewrite (IH fuel (S k) _ _ H) by lia. f_equal. lia.
Qed.

Definition bad (o : sout) : Prop :=
  match o with OFailed _ _ | OCrashed => True | _ => False end.

Definition cont := list (estate * expr).

(* the top frame still has work to do before the continuation T *)
Definition above (T : cont) (rest : list frame) (ss : sstate) : Prop :=
  exists f X, stack (base ss) = f :: rest /\ todo f = X ++ T /\ X <> [].

(* j steps of the stop machine, each from a state that satisfies P (the last state need not) *)
Inductive ipath (t : N * N) (p : prog) (P : sstate -> Prop) : sstate -> nat -> sstate -> Prop :=
| ip0 ss : ipath t p P ss 0 ss
| ipS ss ss1 j ss2 : P ss -> step_stop t p ss = ONext ss1 -> ipath t p P ss1 j ss2 -> ipath t p P ss (S j) ss2.

Lemma ipath_trans t p P a j1 b j2 c :
  ipath t p P a j1 b -> ipath t p P b j2 c -> ipath t p P a (j1 + j2) c.
Proof.
  induction 1 as [|a a1 j b Pa S1 _ IH]; intros H2; cbn [Nat.add]; [exact H2|].
  econstructor; eauto.
Qed.

Lemma ipath_weaken t p (P Q : sstate -> Prop) a j b :
  (forall x, P x -> Q x) -> ipath t p P a j b -> ipath t p Q a j b.
Proof. intros PQ. induction 1; econstructor; eauto. Qed.

Lemma ipath_iter t p P a j b : ipath t p P a j b -> iter_stop t p j a = Some b.
Proof. induction 1 as [|a a1 j b _ S1 _ IH]; cbn [iter_stop]; [reflexivity|]. now rewrite S1. Qed.

Lemma ipath_inside t p (P : sstate -> Prop) a j b : ipath t p P a j b -> P b ->
  forall i, i <= j -> exists si, iter_stop t p i a = Some si /\ P si.
Proof.
  induction 1 as [a|a a1 j b Pa S1 _ IH]; intros Pb i Hi.
  - exists a. replace i with 0 by lia. split; [reflexivity|exact Pb].
  - destruct i as [|i]; [exists a; split; [reflexivity|exact Pa]|].
    destruct (IH Pb i) as (si & I & Psi); [lia|]. exists si. split; [|exact Psi]. cbn [iter_stop]. now rewrite S1.
Qed.

Lemma above_app Y T rest ss : above (Y ++ T) rest ss -> above T rest ss.
Proof.
  intros (f & X & ST & TD & NE). exists f, (X ++ Y). split; [exact ST|]. split.
  - now rewrite <- app_assoc.
  - destruct X; [congruence|discriminate].
Qed.

Lemma above_cons f rest ss x Y T : stack (base ss) = f :: rest -> todo f = x :: Y ++ T -> above T rest ss.
Proof. intros ST TD. exists f, (x :: Y). split; [exact ST|]. split; [exact TD|discriminate]. Qed.

Lemma above_head f rest ss x T : stack (base ss) = f :: rest -> todo f = x :: T -> above T rest ss.
Proof. apply (above_cons f rest ss x []). Qed.

Definition reach (t : N * N) (p : prog) (T : cont) (rest : list frame) (ss : sstate) (Fin : sstate -> Prop) : Prop :=
  exists j x, ipath t p (above T rest) ss j x /\ Fin x.

Lemma reach_now t p T rest ss (Fin : sstate -> Prop) : Fin ss -> reach t p T rest ss Fin.
Proof. intros F. exists 0, ss. split; [constructor|exact F]. Qed.

Lemma reach_path t p T rest ss j ss1 Fin :
  ipath t p (above T rest) ss j ss1 -> reach t p T rest ss1 Fin -> reach t p T rest ss Fin.
Proof. intros I (j2 & x & I2 & F). exists (j + j2), x. split; [eapply ipath_trans; eauto|exact F]. Qed.

Lemma reach_step t p T rest ss ss1 Fin :
  above T rest ss -> step_stop t p ss = ONext ss1 -> reach t p T rest ss1 Fin -> reach t p T rest ss Fin.
Proof. intros A S1. apply (reach_path t p T rest ss 1). econstructor; [exact A|exact S1|constructor]. Qed.

(* the three ways the evaluation of an entry can end *)
Definition FinFail (t : N * N) (p : prog) (T : cont) (rest : list frame) : sstate -> Prop :=
  fun pre => above T rest pre /\ bad (step_stop t p pre).

Definition pushed (u : bool) (V V' : list value) : Prop :=
  if u then exists v, V' = v :: V else V' = V.

Definition FinComp (T : cont) (rest : list frame) (cs : list (N * N)) (u : bool) (V : list value) : sstate -> Prop :=
  fun ss' => exists f', stack (base ss') = f' :: rest /\ todo f' = T /\ pushed u V (vals f') /\ callers ss' = cs.

Definition FinStop (t : N * N) (p : prog) (T : cont) (rest : list frame) (cs : list (N * N)) (V : list value) : sstate -> Prop :=
  fun pre => above T rest pre /\
    exists v ss' f', step_stop t p pre = OStopped v ss' /\
      stack (base ss') = f' :: rest /\ todo f' = T /\ vals f' = v :: V /\ callers ss' = cs.

(* "the machine gets from ss to a state in Q, unless the evaluation fails
   first": the form of every intermediate claim below.  Such claims compose
   (runs_bind), which is where the paths are concatenated. *)
Definition runs (t : N * N) (p : prog) (T : cont) (rest : list frame) (ss : sstate) (Q : sstate -> Prop) : Prop :=
  reach t p T rest ss (FinFail t p T rest) \/ reach t p T rest ss Q.

Lemma runs_now t p T rest ss (Q : sstate -> Prop) : Q ss -> runs t p T rest ss Q.
Proof. intros H. right. now apply reach_now. Qed.

Lemma runs_bind {t p T rest ss} {Q R : sstate -> Prop} :
  runs t p T rest ss Q -> (forall x, Q x -> runs t p T rest x R) -> runs t p T rest ss R.
Proof.
  intros [F|(j & x & I & HQ)] K; [left; exact F|].
  destruct (K x HQ) as [F|HR]; [left|right]; eapply reach_path; eauto.
Qed.

Lemma runs_app t p Y T rest ss Q : runs t p (Y ++ T) rest ss Q -> runs t p T rest ss Q.
Proof.
  assert (W : forall j x, ipath t p (above (Y ++ T) rest) ss j x -> ipath t p (above T rest) ss j x).
  { intros j x. apply ipath_weaken. intros y. apply above_app. }
  intros [(j & x & I & A & B)|(j & x & I & HQ)]; [left|right]; exists j, x; (split; [now apply W|]); [|exact HQ].
  split; [now apply above_app in A|exact B].
Qed.

Fixpoint block_flags (u : bool) (l : list expr) : bool :=
  match l with
  | [] => true
  | [x] => Bool.eqb (eused x) u
  | x :: l' => negb (eused x) && block_flags u l'
  end.

Definition count_used (l : list expr) : nat := length (filter eused l).

Lemma count_used_cons x l : count_used (x :: l) = (if eused x then 1 else 0) + count_used l.
Proof. unfold count_used. cbn [filter]. destruct (eused x); reflexivity. Qed.

Lemma count_used_all l : forallb eused l = true -> count_used l = length l.
Proof.
  induction l as [|x l IH]; [reflexivity|]. cbn [forallb]. rewrite andb_true_iff, count_used_cons.
  intros [-> U]. cbn [length]. now rewrite IH.
Qed.

Lemma block_flags_count u l : block_flags u l = true ->
  count_used l = match l with [] => 0 | _ => if u then 1 else 0 end.
Proof.
  induction l as [|x l IH]; intros H; [reflexivity|].
  rewrite count_used_cons. destruct l as [|y l].
  - cbn [block_flags] in H. apply Bool.eqb_prop in H. rewrite H. unfold count_used. cbn. destruct u; reflexivity.
  - change (block_flags u (x :: y :: l)) with (negb (eused x) && block_flags u (y :: l)) in H.
    apply andb_true_iff in H. destruct H as [H1 H2]. rewrite (IH H2).
    destruct (eused x); [discriminate|]. reflexivity.
Qed.

(* The fragment: literals, variables, fun literals, operators, let, assignment,
   update, parentheses, if / if-else, match, list and tuple literals.
   `frag t e` also records what the parser's value_is_used pass guarantees
   (operands / right-hand sides / conditions / items are used; in a block
   only the last expression may be used) and that no PROPER subexpression
   of e has the span t. *)
Inductive frag (t : N * N) : expr -> Prop :=
| F_Int m z : frag t (EInt m z)
| F_Str m s : frag t (EStr m s)
| F_Var m x : frag t (EVar m x)
| F_Fun m ps b : frag t (EFun m ps b)
| F_Bin m o l r : frag t l -> frag t r -> eused l = true -> eused r = true -> epos l <> t -> epos r <> t ->
    frag t (EBin m o l r)
| F_Paren m i : frag t i -> eused i = used m -> epos i <> t -> frag t (EParen m i)
| F_Let m x r : frag t r -> eused r = true -> epos r <> t -> frag t (ELet m x r)
| F_Assign m x xp r : frag t r -> eused r = true -> epos r <> t -> frag t (EAssign m x xp r)
| F_Upd m o x xp r : frag t r -> eused r = true -> epos r <> t -> frag t (EUpd m o x xp r)
| F_If m c th : frag t c -> eused c = true -> epos c <> t -> fseq t th -> block_flags false th = true ->
    frag t (EIf m c th None)
| F_IfElse m c th eb : frag t c -> eused c = true -> epos c <> t -> fseq t th -> fseq t eb ->
    block_flags (used m) th = true -> block_flags (used m) eb = true ->
    frag t (EIf m c th (Some eb))
| F_List m l : fseq t (rev l) -> forallb eused l = true -> frag t (EList m l)
| F_Tuple m l : fseq t (rev l) -> forallb eused l = true -> frag t (ETuple m l)
| F_Match m sc cases : frag t sc -> eused sc = true -> epos sc <> t -> fcases t (used m) cases ->
    frag t (EMatch m sc cases)
with fseq (t : N * N) : list expr -> Prop :=
| FS_nil : fseq t []
| FS_cons x l : frag t x -> epos x <> t -> fseq t l -> fseq t (x :: l)
with fcases (t : N * N) : bool -> list (ident * (N * N) * option ident * list expr) -> Prop :=
| FC_nil u : fcases t u []
| FC_cons u pat body cs : fseq t body -> block_flags u body = true -> fcases t u cs ->
    fcases t u ((pat, body) :: cs).

Scheme frag_mut := Minimality for frag Sort Prop
  with fseq_mut := Minimality for fseq Sort Prop
  with fcases_mut := Minimality for fcases Sort Prop.
Combined Scheme frag_fseq_ind from frag_mut, fseq_mut, fcases_mut.

Definition not_paren (e : expr) : Prop := match e with EParen _ _ => False | _ => True end.

(* what the evaluation of an entry (NotEvaluated, e) over T comes to *)
Definition concl (t : N * N) (p : prog) (T : cont) (rest : list frame) (cs : list (N * N)) (e : expr)
           (V : list value) (ss : sstate) : Prop :=
  reach t p T rest ss (FinFail t p T rest) \/
  (epos e <> t /\ reach t p T rest ss (FinComp T rest cs (eused e) V)) \/
  (epos e = t /\ reach t p T rest ss (FinStop t p T rest cs V)).

Lemma concl_path t p T rest cs e V ss j ss1 :
  ipath t p (above T rest) ss j ss1 -> concl t p T rest cs e V ss1 -> concl t p T rest cs e V ss.
Proof.
  intros I [F|[[NE C]|[EQ S]]].
  - left. eapply reach_path; eauto.
  - right. left. split; [exact NE|]. eapply reach_path; eauto.
  - right. right. split; [exact EQ|]. eapply reach_path; eauto.
Qed.

Lemma runs_concl {t p T rest cs e V ss} {Q : sstate -> Prop} :
  runs t p T rest ss Q -> (forall x, Q x -> concl t p T rest cs e V x) -> concl t p T rest cs e V ss.
Proof. intros [F|(j & x & I & HQ)] K; [left; exact F|]. eapply concl_path; eauto. Qed.

Lemma concl_ne t p T rest cs e V ss :
  epos e <> t -> runs t p T rest ss (FinComp T rest cs (eused e) V) -> concl t p T rest cs e V ss.
Proof. intros NE [F|C]; [left; exact F|right; left; split; assumption]. Qed.

(* the claim about an expression e of the fragment; a target is used, and
   not a parenthesis (whose entry never reaches EvaluatedSubexpressions) *)
Definition econtract (t : N * N) (p : prog) (e : expr) : Prop :=
  (epos e = t -> eused e = true /\ not_paren e) ->
  forall ss f rest T,
    stack (base ss) = f :: rest -> todo f = (SNot, e) :: T ->
    concl t p T rest (callers ss) e (vals f) ss.

(* the frame is back to the continuation T with n more values *)
Definition FinSeq (T : cont) (rest : list frame) (cs : list (N * N)) (n : nat) (V : list value) : sstate -> Prop :=
  fun ss' => exists f' W, stack (base ss') = f' :: rest /\ todo f' = T /\
                          vals f' = W ++ V /\ length W = n /\ callers ss' = cs.

Definition scontract (t : N * N) (p : prog) (L : list expr) : Prop :=
  forall ss f rest T,
    stack (base ss) = f :: rest -> todo f = map (fun e => (SNot, e)) L ++ T ->
    runs t p T rest ss (FinSeq T rest (callers ss) (count_used L) (vals f)).

(* what a step that finishes an entry has to do: leave the continuation that
   follows the entry and push a value exactly if the entry's value is used *)
Definition completes (x : xres) (T : cont) (u : bool) (V : list value) : Prop :=
  match x with
  | XOk f' _ => todo f' = T /\ pushed u V (vals f')
  | XCall _ _ | XUnsupported => False
  | _ => True
  end.

Lemma completes_push u f v pr : completes (XOk (push_val_if u f v) pr) (todo f) u (vals f).
Proof. split; [apply push_val_if_todo|]. destruct u; cbn; eauto. Qed.

(* the forms whose entry is finished by its EvaluatedSubexpressions step *)
Definition staged (e : expr) : Prop :=
  forall es, done_after es e = match es with SDone => true | _ => false end /\ is_for_part es e = false.

Section Stages.
Variable t : N * N.
Variable p : prog.

Lemma entry_step T rest ss f es e :
  stack (base ss) = f :: rest -> todo f = (es, e) :: T ->
  reach t p T rest ss (FinFail t p T rest) \/
  match exec p (set_todo f T) es e with
  | XOk f' printed =>
      step_stop t p ss =
      after_ok t (callers ss) (with_stack (base ss) (f' :: rest) (ticks (base ss) + 1)%N (printed ++ out (base ss)) false) f' es e
  | XCall _ _ | XUnsupported => True
  | _ => False
  end.
Proof.
  intros ST TD.
  assert (FAIL : bad (step_stop t p ss) -> reach t p T rest ss (FinFail t p T rest)).
  { intros B. apply reach_now. split; [exact (above_head _ _ _ _ _ ST TD)|exact B]. }
  unfold step_stop in *. rewrite ST, TD in *.
  destruct (interrupted (base ss)); [left; exact (FAIL I)|].
  destruct (opt_le _ _); [left; exact (FAIL I)|].
  destruct (opt_lt _ _); [left; exact (FAIL I)|].
  destruct (exec p (set_todo f T) es e);
    [right; reflexivity|right; exact I|left; exact (FAIL I)|left; exact (FAIL I)|right; exact I].
Qed.

Lemma step_stage T rest ss f es e :
  stack (base ss) = f :: rest -> todo f = (es, e) :: T ->
  done_after es e = false -> is_for_part es e = false ->
  match exec p (set_todo f T) es e with
  | XOk f' _ => runs t p T rest ss (fun ss' => stack (base ss') = f' :: rest /\ callers ss' = callers ss)
  | XCall _ _ | XUnsupported => True
  | _ => reach t p T rest ss (FinFail t p T rest)
  end.
Proof.
  intros ST TD D F. destruct (entry_step T rest ss f es e ST TD) as [B|E].
  { destruct (exec p (set_todo f T) es e); try exact I; try exact B. left. exact B. }
  destruct (exec p (set_todo f T) es e) as [f' pr| | | |]; try contradiction; try exact I.
  right. rewrite (after_ok_inner _ _ _ _ _ _ D F) in E.
  eapply reach_step; [exact (above_head _ _ _ _ _ ST TD)|exact E|apply reach_now; split; reflexivity].
Qed.

Lemma last_stage T rest ss f es e V :
  stack (base ss) = f :: rest -> todo f = (es, e) :: T -> done_after es e = true ->
  (epos e = t -> eused e = true) ->
  completes (exec p (set_todo f T) es e) T (eused e) V ->
  concl t p T rest (callers ss) e V ss.
Proof.
  intros ST TD D U EX. pose proof (above_head _ _ _ _ _ ST TD) as A.
  destruct (entry_step T rest ss f es e ST TD) as [B|E]; [left; exact B|].
  destruct (exec p (set_todo f T) es e) as [f' pr| |er| |]; try contradiction.
  destruct EX as [TD' PU]. unfold after_ok in E. rewrite D in E. right.
  destruct (pos_eqb (epos e) t) eqn:PE.
  - apply pos_eqb_eq in PE. right. split; [exact PE|]. apply reach_now. split; [exact A|].
    rewrite (U PE) in PU. destruct PU as [v PV].
    exists (top_or_err f'). eexists. exists f'. split; [exact E|].
    unfold top_or_err. rewrite PV. repeat split; auto.
  - left. split; [intros C; apply pos_eqb_eq in C; congruence|].
    eapply reach_step; [exact A|exact E|]. apply reach_now. exists f'. repeat split; auto.
Qed.

Lemma sub_eval e Y T rest ss f :
  econtract t p e -> epos e <> t ->
  stack (base ss) = f :: rest -> todo f = (SNot, e) :: Y ++ T ->
  runs t p T rest ss (FinComp (Y ++ T) rest (callers ss) (eused e) (vals f)).
Proof.
  intros C NE ST TD. apply (runs_app t p Y).
  destruct (C (fun H => match NE H with end) ss f rest (Y ++ T) ST TD) as [F|[[_ R]|[EQ _]]];
    [left; exact F|right; exact R|contradiction].
Qed.

Lemma sub_seq L Y T rest ss f :
  scontract t p L ->
  stack (base ss) = f :: rest -> todo f = map (fun e => (SNot, e)) L ++ Y ++ T ->
  runs t p T rest ss (FinSeq (Y ++ T) rest (callers ss) (count_used L) (vals f)).
Proof. intros C ST TD. apply (runs_app t p Y). exact (C ss f rest (Y ++ T) ST TD). Qed.

Lemma s_nil : scontract t p [].
Proof. intros ss f rest T ST TD. apply runs_now. exists f, []. repeat split; auto. Qed.

Lemma s_cons x l : econtract t p x -> epos x <> t -> scontract t p l -> scontract t p (x :: l).
Proof.
  intros Cx Nx Cl ss f rest T ST TD. cbn [map app] in TD.
  apply (runs_bind (sub_eval x (map (fun e => (SNot, e)) l) T rest ss f Cx Nx ST TD)).
  intros ss1 (f1 & ST1 & TD1 & PU1 & CS1).
  apply (runs_bind (Cl ss1 f1 rest T ST1 TD1)).
  intros ss2 (f2 & W & ST2 & TD2 & V2 & LW & CS2). apply runs_now.
  rewrite count_used_cons. unfold pushed in PU1. destruct (eused x).
  - destruct PU1 as [v PV]. exists f2, (W ++ [v]). repeat split; auto; try congruence.
    + rewrite V2, PV, <- app_assoc. reflexivity.
    + rewrite app_length. cbn [length]. lia.
  - exists f2, W. repeat split; auto; congruence.
Qed.

Lemma c_atomic e :
  done_after SNot e = true -> (forall f, completes (exec p f SNot e) (todo f) (eused e) (vals f)) ->
  econtract t p e.
Proof.
  intros D EX HU ss f rest T ST TD.
  apply (last_stage T rest ss f SNot e (vals f) ST TD D); [intros HE; apply (HU HE)|]. apply (EX (set_todo f T)).
Qed.

Lemma c_paren m i :
  econtract t p i -> eused i = used m -> epos i <> t -> econtract t p (EParen m i).
Proof.
  intros Ci Ui Ni HU ss f rest T ST TD. set (e := EParen m i) in *.
  apply concl_ne; [intros PE; destruct (HU PE) as [_ []]|].
  pose proof (step_stage T rest ss f SNot e ST TD eq_refl eq_refl) as S1.
  cbn [exec e] in S1. apply (runs_bind S1). intros ss1 [ST1 <-].
  change (eused e) with (used m). rewrite <- Ui.
  exact (sub_eval i [] T rest ss1 _ Ci Ni ST1 eq_refl).
Qed.

(* strict forms: the first step puts the subexpressions L on the
   continuation, above an entry (EvaluatedSubexpressions, e); that entry's
   step consumes their values and finishes e *)
Lemma c_strict e L :
  (forall f, exists f1, exec p f SNot e = XOk f1 [] /\
     todo f1 = map (fun x => (SNot, x)) L ++ (SDone, e) :: todo f /\ vals f1 = vals f) ->
  (forall f W V, vals f = W ++ V -> length W = length L -> completes (exec p f SDone e) (todo f) (eused e) V) ->
  staged e -> scontract t p L -> forallb eused L = true -> econtract t p e.
Proof.
  intros EN ED SG CL UL HU ss f rest T ST TD.
  destruct (EN (set_todo f T)) as (f1 & EX & TD1 & V1).
  pose proof (step_stage T rest ss f SNot e ST TD (proj1 (SG SNot)) (proj2 (SG SNot))) as S1.
  rewrite EX in S1. apply (runs_concl S1). intros ss1 [ST1 <-].
  apply (runs_concl (sub_seq L [(SDone, e)] T rest ss1 f1 CL ST1 TD1)).
  intros ss2 (f2 & W & ST2 & TD2 & V2 & LW & <-).
  apply (last_stage T rest ss2 f2 SDone e (vals f) ST2 TD2 (proj1 (SG SDone))); [intros HE; apply (HU HE)|].
  apply (ED (set_todo f2 T) W); [cbn [vals set_todo]; rewrite V2, V1; reflexivity|].
  rewrite LW. exact (count_used_all L UL).
Qed.

Lemma eval_binop_completes f m o lp rp rv lv vs :
  vals f = rv :: lv :: vs -> completes (eval_binop f m o lp rp) (todo f) (used m) vs.
Proof.
  intros H. pose proof (eval_binop_cases f m o lp rp _ eq_refl) as C.
  destruct (eval_binop f m o lp rp); try exact C; try exact I.
  destruct C as (rv' & lv' & vs' & v & E & ->). rewrite H in E. injection E as _ _ <-.
  apply (completes_push (used m) (set_vals f vs)).
Qed.

Lemma c_bin m o l r :
  econtract t p l -> econtract t p r -> eused l = true -> eused r = true -> epos l <> t -> epos r <> t ->
  econtract t p (EBin m o l r).
Proof.
  intros Cl Cr Ul Ur Nl Nr. apply (c_strict _ [l; r]); [| |intros []; split; reflexivity| |].
  - intros f. eexists. repeat split.
  - intros f [|rv [|lv [|]]] V HV; try discriminate. intros _. apply (eval_binop_completes f m o _ _ rv lv V HV).
  - apply s_cons; [exact Cl|exact Nl|]. apply s_cons; [exact Cr|exact Nr|apply s_nil].
  - cbn [forallb]. now rewrite Ul, Ur.
Qed.

Lemma c_rhs e r :
  (forall f, exec p f SNot e = XOk (push_todo (push_todo f SDone e) SNot r) []) ->
  (forall f v V, vals f = v :: V -> completes (exec p f SDone e) (todo f) (eused e) V) ->
  staged e -> econtract t p r -> eused r = true -> epos r <> t -> econtract t p e.
Proof.
  intros EN ED SG Cr Ur Nr. apply (c_strict e [r]); try assumption.
  - intros f. eexists. rewrite EN. repeat split.
  - intros f [|v [|]] V HV; try discriminate. intros _. exact (ED f v V HV).
  - apply s_cons; [exact Cr|exact Nr|apply s_nil].
  - cbn [forallb]. now rewrite Ur.
Qed.

Lemma c_let m x r :
  econtract t p r -> eused r = true -> epos r <> t -> econtract t p (ELet m x r).
Proof.
  apply c_rhs; [reflexivity| |intros []; split; reflexivity]. intros f v V HV.
  cbn [exec]. unfold pop_val. rewrite HV. apply (completes_push (used m) (set_blocks (set_vals f V) _)).
Qed.

Lemma c_assign m x xp r :
  econtract t p r -> eused r = true -> epos r <> t -> econtract t p (EAssign m x xp r).
Proof.
  apply c_rhs; [reflexivity| |intros []; split; reflexivity]. intros f v V HV.
  cbn [exec]. destruct (lookup_blocks x (blocks f)); [|exact I]. unfold pop_val. rewrite HV.
  destruct (set_existing x v _); [|exact I]. apply (completes_push (used m) (set_blocks (set_vals f V) _)).
Qed.

Lemma c_upd m o x xp r :
  econtract t p r -> eused r = true -> epos r <> t -> econtract t p (EUpd m o x xp r).
Proof.
  apply c_rhs; [reflexivity| |intros []; split; reflexivity]. intros f v V HV.
  cbn [exec]. destruct (get_var p f x) as [cur|]; [|exact I]. destruct (int_of cur); [|exact I].
  unfold pop_val. rewrite HV. destruct (int_of v); [|exact I].
  destruct (arm_sem true (upd_arm o) z z0); try exact I.
  destruct (set_existing x _ _); [|exact I]. apply (completes_push (used m) (set_blocks (set_vals f V) _)).
Qed.

Lemma c_items (mk : meta -> list expr -> expr) (mkv : list value -> value) m l :
  (forall f es, exec p f es (mk m l) =
     match es with
     | SDone => match pop_n (length l) (vals f) with
                | None => XPanic
                | Some (w, rest) => XOk (push_val_if (used m) (set_vals f rest) (mkv w)) []
                end
     | _ => XOk (fold_left (fun acc it => push_todo acc SNot it) l (push_todo f SDone (mk m l))) []
     end) ->
  staged (mk m l) -> eused (mk m l) = used m ->
  scontract t p (rev l) -> forallb eused l = true -> econtract t p (mk m l).
Proof.
  intros EX SG EU Cl Ul. apply (c_strict _ (rev l)); try assumption.
  - intros f. eexists. rewrite EX, fold_push_todo_eq. repeat split.
  - intros f W V HV LW. rewrite EX, HV, <- (rev_length l), <- LW, pop_n_app, EU.
    apply (completes_push (used m) (set_vals f V)).
  - rewrite forallb_forall in *. intros x IN. apply Ul. now apply in_rev.
Qed.

(* the value stack on entering a block: eval_block pushes Unit for an empty
   body whose value is used *)
Definition block_vals (u : bool) (body : list expr) (V : list value) : list value :=
  match body with [] => if u then vunit :: V else V | _ => V end.

(* what the step that takes a branch has to do: enter a block of the fragment
   above T *)
Definition enters (x : xres) (T : cont) (u : bool) (V : list value) : Prop :=
  match x with
  | XOk f' _ => exists body, scontract t p body /\ block_flags u body = true /\
                             todo f' = map (fun e => (SNot, e)) body ++ T /\ vals f' = block_vals u body V
  | XCall _ _ | XUnsupported => False
  | _ => True
  end.

Lemma enters_block g u body pr :
  scontract t p body -> block_flags u body = true -> enters (XOk (eval_block g u body) pr) (todo g) u (vals g).
Proof.
  intros C BF. exists body. split; [exact C|]. split; [exact BF|]. unfold eval_block.
  destruct body; [destruct u|]; split; reflexivity.
Qed.

Lemma block_stage body u e T rest ss f V :
  scontract t p body -> block_flags u body = true ->
  stack (base ss) = f :: rest ->
  todo f = map (fun x => (SNot, x)) body ++ [(SDone, e)] ++ T -> vals f = block_vals u body V ->
  runs t p T rest ss (FinComp ((SDone, e) :: T) rest (callers ss) u V).
Proof.
  intros C BF ST TD VV.
  apply (runs_bind (sub_seq body [(SDone, e)] T rest ss f C ST TD)).
  intros ss' (f' & W & ST' & TD' & V' & LW & CS). apply runs_now.
  exists f'. repeat split; auto.
  rewrite (block_flags_count u body BF) in LW. rewrite V', VV. unfold block_vals, pushed.
  destruct body as [|x body], u, W as [|w [|w2 W]]; try discriminate; cbn; eauto.
Qed.

(* branching forms: the first step puts the condition / scrutinee c on the
   continuation, above an entry (PartiallyEvaluated, e); that entry's step
   consumes the value of c and enters a block, above an entry
   (EvaluatedSubexpressions, e), whose step closes the block *)
Lemma c_branch e c u :
  (forall f, exec p f SNot e = XOk (push_todo (push_todo f (SPart BWill) e) SNot c) []) ->
  (forall f cv V, vals f = cv :: V -> enters (exec p f (SPart BWill) e) ((SDone, e) :: todo f) u V) ->
  (forall f V, pushed u V (vals f) -> completes (exec p f SDone e) (todo f) (eused e) V) ->
  staged e -> econtract t p c -> eused c = true -> epos c <> t -> econtract t p e.
Proof.
  intros EN EP ED SG Cc Uc Nc HU ss f rest T ST TD.
  pose proof (step_stage T rest ss f SNot e ST TD (proj1 (SG SNot)) (proj2 (SG SNot))) as S1.
  rewrite EN in S1. apply (runs_concl S1). intros ss1 [ST1 <-].
  apply (runs_concl (sub_eval c [(SPart BWill, e)] T rest ss1 _ Cc Nc ST1 eq_refl)).
  intros ss2 (f2 & ST2 & TD2 & PU2 & <-). rewrite Uc in PU2. destruct PU2 as [cv V2].
  pose proof (step_stage T rest ss2 f2 (SPart BWill) e ST2 TD2 (proj1 (SG (SPart BWill))) (proj2 (SG (SPart BWill)))) as S3.
  pose proof (EP (set_todo f2 T) cv (vals f) V2) as E3.
  destruct (exec p (set_todo f2 T) (SPart BWill) e) as [f3 pr| | | |]; try contradiction; try (left; exact S3).
  destruct E3 as (body & Cb & BF & TD3 & V3).
  apply (runs_concl S3). intros ss3 [ST3 <-].
  apply (runs_concl (block_stage body u e T rest ss3 f3 (vals f) Cb BF ST3 TD3 V3)).
  intros ss4 (f4 & ST4 & TD4 & PU4 & <-).
  apply (last_stage T rest ss4 f4 SDone e (vals f) ST4 TD4 (proj1 (SG SDone))); [intros HE; apply (HU HE)|].
  apply (ED (set_todo f4 T)). exact PU4.
Qed.

Lemma c_if m c th :
  econtract t p c -> eused c = true -> epos c <> t -> scontract t p th -> block_flags false th = true ->
  econtract t p (EIf m c th None).
Proof.
  intros Cc Uc Nc Cth BF. apply (c_branch _ c false); try assumption; [reflexivity| | |intros []; split; reflexivity].
  - intros f cv V HV. cbn [exec]. unfold pop_val. cbn [vals push_todo]. rewrite HV, andb_false_r.
    destruct (as_bool cv) as [[|]|]; [| |exact I].
    + now apply (enters_block (set_vals (push_todo f SDone _) V)).
    + exists []. repeat split. apply s_nil.
  - intros f V HV. cbn [exec]. destruct (pop_block f) as [f1|] eqn:PB; [|exact I].
    apply pop_block_vals in PB. destruct PB as [PV PT]. rewrite andb_true_r, <- PT, <- HV, <- PV.
    apply completes_push.
Qed.

Lemma c_ifelse m c th eb :
  econtract t p c -> eused c = true -> epos c <> t -> scontract t p th -> scontract t p eb ->
  block_flags (used m) th = true -> block_flags (used m) eb = true ->
  econtract t p (EIf m c th (Some eb)).
Proof.
  intros Cc Uc Nc Cth Ceb BF1 BF2. apply (c_branch _ c (used m)); try assumption; [reflexivity| | |intros []; split; reflexivity].
  - intros f cv V HV. cbn [exec]. unfold pop_val. cbn [vals push_todo]. rewrite HV, andb_true_r.
    destruct (as_bool cv) as [[|]|]; [| |exact I]; now apply (enters_block (set_vals (push_todo f SDone _) V)).
  - intros f V HV. cbn [exec]. destruct (pop_block f) as [f1|] eqn:PB; [|exact I].
    apply pop_block_vals in PB. destruct PB as [PV PT]. rewrite andb_false_r. cbn [push_val_if].
    split; [exact PT|]. rewrite PV. exact HV.
Qed.

Definition ccontract (u : bool) (cases : list (ident * (N * N) * option ident * list expr)) : Prop :=
  forall body, In body (map snd cases) -> scontract t p body /\ block_flags u body = true.

Lemma match_cases_enters u cases : ccontract u cases -> forall f sp ty idx pl,
  enters (match_cases p f u sp ty idx pl cases) (todo f) u (vals f).
Proof.
  intros CC f sp ty idx pl. pose proof (match_cases_cases p u sp ty idx pl cases f _ eq_refl) as M.
  destruct (match_cases p f u sp ty idx pl cases); try exact M; try exact I.
  destruct M as (nb & body & IN & ->). destruct (CC body IN) as [Cb BF].
  now apply (enters_block (set_nextb f nb)).
Qed.

Lemma c_match m sc cases :
  econtract t p sc -> eused sc = true -> epos sc <> t -> ccontract (used m) cases ->
  econtract t p (EMatch m sc cases).
Proof.
  intros Cc Uc Nc CC. apply (c_branch _ sc (used m)); try assumption; [reflexivity| | |intros []; split; reflexivity].
  - intros f sv V HV. cbn [exec]. unfold pop_val. cbn [vals push_todo]. rewrite HV.
    destruct sv; try exact I. apply (match_cases_enters _ _ CC (set_vals (push_todo f SDone _) V)).
  - intros f V HV. cbn [exec]. destruct (pop_block f) as [f1|] eqn:PB; [|exact I].
    apply pop_block_vals in PB. destruct PB as [PV PT]. split; [exact PT|]. rewrite PV. exact HV.
Qed.

Theorem frag_contracts :
  (forall e, frag t e -> econtract t p e) /\ (forall L, fseq t L -> scontract t p L) /\
  (forall u cases, fcases t u cases -> ccontract u cases).
Proof.
  apply frag_fseq_ind; intros.
  - apply c_atomic; [reflexivity|]. intros f. apply completes_push.
  - apply c_atomic; [reflexivity|]. intros f. apply completes_push.
  - apply c_atomic; [reflexivity|]. intros f. cbn [exec]. destruct (get_var p f x); [apply completes_push|exact I].
  - apply c_atomic; [reflexivity|]. intros f. apply completes_push.
  - apply c_bin; assumption.
  - apply c_paren; assumption.
  - apply c_let; assumption.
  - apply c_assign; assumption.
  - apply c_upd; assumption.
  - apply c_if; assumption.
  - apply c_ifelse; assumption.
  - apply (c_items EList VList); try assumption; try reflexivity; intros []; split; reflexivity.
  - apply (c_items ETuple VTuple); try assumption; try reflexivity; intros []; split; reflexivity.
  - apply c_match; assumption.
  - apply s_nil.
  - apply s_cons; assumption.
  - intros body [].
  - intros b [<-|IN]; [split; assumption|now apply H3].
Qed.

End Stages.

Definition above_state (T : cont) (rest : list frame) (s : state) : Prop :=
  exists f X, stack s = f :: rest /\ todo f = X ++ T /\ X <> [].

(* An evaluation of a target expression in the fragment either fails or ends
   in the stop, exactly when the continuation is back to T with one more value. *)
Theorem target_evaluation t p e ss f rest T :
  frag t e -> epos e = t -> eused e = true -> not_paren e ->
  stack (base ss) = f :: rest -> todo f = (SNot, e) :: T ->
  reach t p T rest ss (FinFail t p T rest) \/
  reach t p T rest ss (FinStop t p T rest (callers ss) (vals f)).
Proof.
  intros FR PE UE NP ST TD.
  destruct (proj1 (frag_contracts t p) e FR (fun _ => conj UE NP) ss f rest T ST TD) as [F|[[NE _]|[_ S]]]; auto.
  contradiction.
Qed.

Theorem stop_at_first_value t p fuel ss0 n v ssf m s_m e f rest T :
  run_stop t p fuel 0 ss0 = TStopped n v ssf ->
  plain_iter p m (base ss0) = Some s_m -> m < n ->
  stack s_m = f :: rest -> todo f = (SNot, e) :: T ->
  epos e = t -> eused e = true -> not_paren e -> frag t e ->
  exists f',
    stack (base ssf) = f' :: rest /\ todo f' = T /\ vals f' = v :: vals f /\
    plain_iter p n (base ss0) = Some (base ssf) /\
    (forall i, m <= i < n -> exists si, plain_iter p i (base ss0) = Some si /\ above_state T rest si).
Proof.
  intros RUN PM LT ST TD PE UE NP FR.
  apply run_stop_stopped in RUN. destruct RUN as (j & spre & -> & IJ & SJ). cbn [Nat.add] in *.
  destruct (iter_stop_prefix t p m j ss0 spre IJ) as (sm & IM & IR); [lia|].
  pose proof (iter_stop_plain _ _ _ _ _ IM) as PM'. rewrite PM in PM'. inversion PM'; subst s_m. clear PM'.
  (* the evaluation of e that begins in sm can only end in spre, the state that stops *)
  assert (END : forall j' x, ipath t p (above T rest) sm j' x -> (forall z, step_stop t p x <> ONext z) ->
                j' = j - m /\ x = spre).
  { intros j' x IP NX. pose proof (ipath_iter _ _ _ _ _ _ IP) as IX.
    assert (j' = j - m) by (eapply iter_stop_halt_unique; eauto; intros z; rewrite SJ; discriminate).
    subst j'. split; [reflexivity|congruence]. }
  destruct (target_evaluation t p e sm f rest T FR PE UE NP ST TD)
    as [(j' & x & IP & A & B)|(j' & x & IP & A & (v' & ss' & f' & SX & ST' & TD' & VV & CS))].
  - exfalso. destruct (END j' x IP) as [_ ->]; [intros z Z; rewrite Z in B; exact B|].
    rewrite SJ in B. exact B.
  - destruct (END j' x IP) as [-> ->]; [intros z; rewrite SX; discriminate|].
    rewrite SJ in SX. inversion SX; subst v' ss'.
    exists f'. repeat split; auto.
    + destruct A as (fa & [|[es ea] X] & STa & TDa & NEa); [destruct (NEa eq_refl)|].
      pose proof (step_stop_spec t p spre) as SI. rewrite SJ in SI. destruct SI as (s1 & PN & _ & SH).
      unfold stop_shape in SH. rewrite STa, TDa in SH. destruct SH as (_ & -> & _).
      exact (plain_iter_last _ _ _ _ _ (iter_stop_plain _ _ _ _ _ IJ) PN).
    + intros i [Li Ui].
      destruct (ipath_inside _ _ _ _ _ _ IP A (i - m)) as (si & ISI & ASI); [lia|].
      exists (base si). split; [|exact ASI].
      replace i with (m + (i - m)) by lia. apply (iter_stop_plain t).
      rewrite iter_stop_add, IM. exact ISI.
Qed.

Definition mm (u : bool) (a b : N) : meta := {| used := u; pstart := a; pend := b |}.

(* { let y = 2   let z = (y + 1)   z * 2 }   with the spans the parser gives *)
Definition ex_bin : expr := EBin (mm true 29 34) (BInt OAdd) (EVar (mm true 29 30) 10%N) (EInt (mm true 33 34) 1%Z).
Definition ex_prog : prog := {| globals := []; funs := [] |}.
Definition ex_exprs : list expr :=
  [ ELet (mm false 6 15) 10%N (EInt (mm true 14 15) 2%Z);
    ELet (mm false 20 35) 11%N (EParen (mm true 28 35) ex_bin);
    EBin (mm true 40 45) (BInt OMul) (EVar (mm true 40 41) 11%N) (EInt (mm true 44 45) 2%Z) ].

Lemma ex_frag : frag (29, 34)%N ex_bin.
Proof. unfold ex_bin. apply F_Bin; try constructor; try reflexivity; cbn; intros H; discriminate H. Qed.

Lemma ex_hypotheses :
  exists n ssf s_m f rest T,
    run_stop (29, 34)%N ex_prog 100 0 (mkS (init_state ex_exprs None None) []) = TStopped n (VInt 3) ssf /\
    plain_iter ex_prog 5 (init_state ex_exprs None None) = Some s_m /\ 5 < n /\
    stack s_m = f :: rest /\ todo f = (SNot, ex_bin) :: T /\
    epos ex_bin = (29, 34)%N /\ eused ex_bin = true /\ not_paren ex_bin /\ frag (29, 34)%N ex_bin.
Proof.
  eexists. eexists. eexists. eexists. eexists. eexists.
  split; [vm_compute; reflexivity|].
  split; [vm_compute; reflexivity|].
  split; [vm_compute; lia|].
  split; [reflexivity|]. split; [reflexivity|].
  split; [reflexivity|]. split; [reflexivity|]. split; [exact I|exact ex_frag].
Qed.

(* eval-up-to on `(y + 1)`: the unrepaired code never stops at the parenthesised
   expression and reports the value of the whole block (6); looking through the
   parentheses reports 3. *)
Lemma ex_paren_unfixed : eval_up_to false ex_prog ex_exprs (28, 35)%N None None 100 = UValue (VInt 6) 0.
Proof. vm_compute. reflexivity. Qed.

Lemma ex_paren_fixed : exists n, eval_up_to true ex_prog ex_exprs (28, 35)%N None None 100 = UValue (VInt 3) n.
Proof. eexists. vm_compute. reflexivity. Qed.
