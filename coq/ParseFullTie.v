(* Ties the generated parser facts (gen/ParserShape.v) to the model of ParseFull.v whose round trip is proved. *)
From Coq Require Import ZArith NArith Bool List.
From Garden Require Import ParseExpr ParseExprTie ParseFull ParseFullProps gen.ParserShape.
Import ListNotations.

(* what the translator found in parse_expression_with, parse_return, parse_expression_no_trailing and KEYWORDS *)
Lemma full_facts_lemma :
  method_arm_recognised = true /\ method_paren_touches = true /\ call_paren_touches = true /\
  return_needs_same_line = true /\ assignment_decided_by_second_token = true /\ keyword_count = 22.
Proof. vm_compute. repeat split; reflexivity. Qed.

Lemma method_touch : method_paren_touches = true.
Proof. apply full_facts_lemma. Qed.

Lemma parse_print_full_current t : wf_item t = true ->
  exists f0, forall f, f0 <= f -> parse_item current_shape method_paren_touches f (print_item t) = Some (t, []).
Proof. rewrite current_is_good, method_touch. apply parse_print_full. Qed.

(* the code before the fix (any `(` after `x.name` starts the argument list, even on the next line):
   the block  { v1.v2 NEWLINE (v3) }  comes back as the single statement v1.v2(v3) *)
Lemma method_space_refuted_lemma :
  let t := IBlock [EDot (EVar 1) 2; EParen (EVar 3)] in
  wf_item t = true /\
  parse_item good_shape false 40 (print_item t) = Some (IBlock [EMethod (EVar 1) 2 [EVar 3]], []) /\
  parse_item good_shape true 40 (print_item t) = Some (t, []).
Proof. vm_compute. repeat split; reflexivity. Qed.

Fixpoint emb (e : pexpr) : expr :=
  match e with
  | PInt z => EInt z
  | PVar x => EVar x
  | PBin o l r => EBin o (emb l) (emb r)
  | PParen e' => EParen (emb e')
  end.

Lemma emb_wf e : ParseExpr.wf e = true -> ParseFull.wf false (emb e) = true.
Proof.
  induction e as [z|x|o l IHl r IHr|e IH]; cbn [ParseExpr.wf emb ParseFull.wf]; auto.
  intros H. apply andb_true_iff in H as [H Hr]. apply andb_true_iff in H as [Hl Hr'].
  rewrite (IHl Hl), (IHr Hr'). destruct r; try reflexivity; discriminate.
Qed.
