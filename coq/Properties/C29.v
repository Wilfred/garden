(* C29 -- LSP positions and edits map exactly onto the document.
   Statements; definitions are in LspPos.v (model of src/lsp.rs and of the LSP
   specification), proofs in LspPosProps.v, which also defines the predicate
   `between_cr_lf` and the sample documents the statements use; the two sample
   examples are assembled in place from its lemmas.

   Documents are lists of Unicode scalar values; offsets are BYTE offsets into
   the UTF-8 encoding (what garden's positions carry); `boundary s o` says o is
   the byte length of a prefix of s.  The line/end-line fields of a garden
   position are not used by the conversions (see stale_end_line_refuted for why
   they must not be).  The hypothesis
   `blen s < 2^32` is there because the Rust code truncates with `as u32`
   (LSP itself cannot address more). *)
From Coq Require Import NArith Bool List.
From Garden Require Import LspPos LspPosProps.
Import ListNotations.
Open Scope N_scope.

(* Offset -> LSP position -> offset is the identity on every character
   boundary of every document (CR, CRLF, astral characters included). *)
Theorem pos_roundtrip : forall s o, blen s < 4294967296 -> boundary s o ->
  exists l c, offset_to_lsp_position s o = POk l c /\ line_char_to_offset s l c = o.
Proof. exact pos_roundtrip_lemma. Qed.
Print Assumptions pos_roundtrip.

(* `boundary` is what the executable `is_boundary` (str::is_char_boundary) decides. *)
Theorem boundary_decided : forall s o, boundary s o <-> is_boundary s o = true.
Proof. exact boundary_iff. Qed.
Print Assumptions boundary_decided.

(* Inside a character the conversion panics (so callers must pass boundaries);
   past the end it clamps to the end. *)
Theorem offset_off_boundary_panics : forall s o, o <= blen s -> ~ boundary s o ->
  offset_to_lsp_position s o = PPanic.
Proof. exact o2p_nonboundary_panics. Qed.
Print Assumptions offset_off_boundary_panics.

Theorem offset_past_end_clamps : forall s o, blen s <= o ->
  offset_to_lsp_position s o = offset_to_lsp_position s (blen s).
Proof. exact o2p_clamps. Qed.
Print Assumptions offset_past_end_clamps.

(* The line of the LSP position is the line number garden's lexer gives that offset. *)
Theorem position_line_is_lexer_line : forall s o l c, blen s < 4294967296 -> boundary s o ->
  offset_to_lsp_position s o = POk l c -> l = line_of s o.
Proof. exact o2p_line_is_lexer_line. Qed.
Print Assumptions position_line_is_lexer_line.

(* The range of a garden position depends on its two offsets only. *)
Theorem range_uses_offsets_only : forall s g,
  garden_pos_to_lsp_range s g = range_of s (start_offset g) (end_offset g).
Proof. exact range_ignores_line_fields. Qed.
Print Assumptions range_uses_offsets_only.

(* Before the fix the line came from the garden position; a position whose
   end offset was moved past a newline (quick fix "Remove unused value") then
   produced an empty range.  First conjunct: the pre-fix code leaves the
   document unchanged; second: the intended splice; third: the fixed code. *)
Theorem stale_end_line_refuted :
  apply_lsp_edit_opt stale_doc (garden_pos_to_lsp_range_v0 stale_doc stale_pos) [] = Some stale_doc
  /\ splice stale_doc 2 4 [] = Some [123; LF; 98; 125]
  /\ apply_lsp_edit_opt stale_doc (garden_pos_to_lsp_range stale_doc stale_pos) [] = Some [123; LF; 98; 125].
Proof. exact stale_end_line_refuted_lemma. Qed.
Print Assumptions stale_end_line_refuted.

(* whole_document_range ends exactly at the position of the end offset:
   (number of `\n`, UTF-16 length of what follows the last `\n`). *)
Theorem whole_range_end_is_end_position : forall s, blen s < 4294967296 ->
  whole_document_end s = (count_lf s, ulen (last_line s)).
Proof. exact whole_document_end_small. Qed.
Print Assumptions whole_range_end_is_end_position.

(* Replacing whole_document_range by t, as the LSP specification defines edits,
   yields exactly t -- for documents in which every CR is followed by LF. *)
Theorem whole_range_covers : forall s t, blen s < 4294967296 -> no_lone_cr s ->
  apply_lsp_edit s (whole_document_range s) t = Some t.
Proof. exact whole_range_covers_lemma. Qed.
Print Assumptions whole_range_covers.

(* The unrestricted statement is false: with a bare CR the edit leaves text behind. *)
Theorem whole_range_lone_cr_refuted :
  apply_lsp_edit [ch_a; CR] (whole_document_range [ch_a; CR]) [] = Some [CR].
Proof. exact whole_range_lone_cr_refuted_lemma. Qed.
Print Assumptions whole_range_lone_cr_refuted.

Theorem whole_range_lone_cr_refuted2 :
  apply_lsp_edit [ch_a; CR; ch_a; LF] (whole_document_range [ch_a; CR; ch_a; LF]) [] = Some [ch_a; LF].
Proof. exact whole_range_lone_cr_refuted2_lemma. Qed.
Print Assumptions whole_range_lone_cr_refuted2.

(* A span edit [a, b) sent as the range garden computes is the byte splice, when
   every CR of the document is followed by LF and neither end lies between a CR
   and its LF. *)
Theorem range_edit_is_splice : forall s a b t, blen s < 4294967296 -> no_lone_cr s ->
  boundary s a -> boundary s b -> a <= b ->
  ~ between_cr_lf s a -> ~ between_cr_lf s b ->
  apply_lsp_edit_opt s (range_of s a b) t = splice s a b t /\ splice s a b t <> None.
Proof. exact range_edit_is_splice_lemma. Qed.
Print Assumptions range_edit_is_splice.

(* The same in prefix form, slightly stronger: only the text BEFORE each end of
   the span has to be free of lone CRs (what follows the span is irrelevant). *)
Theorem range_edit_is_splice_prefix_form : forall p m q t, blen (p ++ m ++ q) < 4294967296 ->
  no_lone_cr p -> no_lone_cr (p ++ m) ->
  apply_lsp_edit_opt (p ++ m ++ q) (range_of (p ++ m ++ q) (blen p) (blen p + blen m)) t
  = Some (p ++ t ++ q).
Proof. exact range_edit_is_splice_app. Qed.
Print Assumptions range_edit_is_splice_prefix_form.

Theorem splice_meaning : forall p m q t,
  splice (p ++ m ++ q) (blen p) (blen p + blen m) t = Some (p ++ t ++ q).
Proof. exact splice_app. Qed.
Print Assumptions splice_meaning.

(* Both hypotheses are necessary. *)
Theorem range_edit_lone_cr_refuted :
  apply_lsp_edit_opt [CR; ch_a] (range_of [CR; ch_a] 1 2) [ch_euro] = Some [ch_euro; CR; ch_a]
  /\ splice [CR; ch_a] 1 2 [ch_euro] = Some [CR; ch_euro].
Proof. exact range_edit_lone_cr_refuted_lemma. Qed.
Print Assumptions range_edit_lone_cr_refuted.

Theorem range_edit_mid_crlf_refuted :
  apply_lsp_edit_opt [ch_a; CR; LF; ch_a] (range_of [ch_a; CR; LF; ch_a] 2 2) [ch_euro]
    = Some [ch_a; ch_euro; CR; LF; ch_a]
  /\ splice [ch_a; CR; LF; ch_a] 2 2 [ch_euro] = Some [ch_a; CR; ch_euro; LF; ch_a].
Proof. exact range_edit_mid_crlf_refuted_lemma. Qed.
Print Assumptions range_edit_mid_crlf_refuted.

(* The side conditions are decidable by the executable checks the driver uses. *)
Theorem no_lone_cr_decided : forall s, no_lone_cr s <-> no_lone_cr_b s = true.
Proof. exact no_lone_cr_iff. Qed.
Print Assumptions no_lone_cr_decided.

Theorem between_cr_lf_decided : forall s o, between_cr_lf s o <-> between_cr_lf_b s o = true.
Proof. exact between_cr_lf_iff. Qed.
Print Assumptions between_cr_lf_decided.

(* Non-vacuity: "aé\r\n€😀a\n😀\ré" (2-, 3-, 4-byte characters, CRLF and a bare CR). *)
Example roundtrip_nonvacuous :
  blen sample = 21 /\ ulen sample = 13 /\
  boundary sample 12 /\ offset_to_lsp_position sample 12 = POk 1 3
  /\ line_char_to_offset sample 1 3 = 12
  /\ boundary sample 21 /\ offset_to_lsp_position sample 21 = POk 2 4
  /\ line_char_to_offset sample 2 4 = 21
  /\ ~ boundary sample 2 /\ offset_to_lsp_position sample 2 = PPanic.
Proof.
  destruct sample_len as [L U], roundtrip_sample as (B1 & P1 & O1), roundtrip_sample_after_cr as (B2 & P2 & O2).
  repeat split; try assumption; apply nonboundary_sample.
Qed.
Print Assumptions roundtrip_nonvacuous.

(* "aé\r\n€😀a\n😀": hypotheses of the edit theorems hold; the span is "😀a" on line 1. *)
Example edits_nonvacuous :
  no_lone_cr sample_crlf /\ blen sample_crlf < 4294967296 /\
  whole_document_range sample_crlf = ((0, 0), (2, 2)) /\
  apply_lsp_edit sample_crlf (whole_document_range sample_crlf) [ch_euro] = Some [ch_euro] /\
  boundary sample_crlf 8 /\ boundary sample_crlf 13 /\
  ~ between_cr_lf sample_crlf 8 /\ ~ between_cr_lf sample_crlf 13 /\
  range_of sample_crlf 8 13 = Some ((1, 1), (1, 4)) /\
  splice sample_crlf 8 13 [ch_eacute] = Some [ch_a; ch_eacute; CR; LF; ch_euro; ch_eacute; LF; ch_grin].
Proof.
  destruct sample_crlf_ok as [N S], whole_range_sample as [W E].
  repeat split; try assumption; apply range_edit_sample.
Qed.
Print Assumptions edits_nonvacuous.
