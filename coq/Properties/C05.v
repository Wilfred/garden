(* C05 -- Core-language programs behave as the reference semantics says.
   Statements; proofs in RefineProps.v, except for `fragment_invariants` (an
   instance of RefineProps.eval_good) and the closed examples, proved in place.

   The evaluator model Machine.v (one `step` = one iteration of the loop in
   eval.rs `eval`; tied to the Rust by differential execution, tools/props/C05.py,
   C06.py) REFINES the independent big-step reference semantics Ref.v, for ALL
   programs of the fragment below, all fuels, all continuations / value stacks
   / callers.

   THE FRAGMENT (Refine.frag / in_fragment) is the whole modelled core
   language -- integer and string literals, variables, parentheses, all binary
   operators, list and tuple literals, let, assignment, += / -=, if / else,
   while, for, break, continue, return, function literals (closures), calls of
   closures, named functions, the builtins println / print / string_repr and
   enum constructors, match -- EXCEPT:
     - `break` / `continue` must be in statement position: reached from the
       body of their loop only through the blocks of if / else / match cases and
       parentheses, never inside an operand, condition, right-hand side,
       argument, list item or scrutinee.  (There the interpreter leaves the
       partial results of the enclosing expression on the value stack -- a
       genuine defect of eval_break / eval_continue, reported, not fixed:
       `[while True { [if c { break } else { 2 }, 1] }, 5]` gives [Unit, 1].)
     - integer literals are 64-bit (what the parser produces);
     - expression forms outside the model (EUnsupported) are excluded.
   Programs must carry the parser's value_is_used annotation (Refine.wa,
   mirroring parser.rs set_is_used_block / set_is_used_expr; for parentheses
   the rule of the fix "a parenthesized expression in statement position no
   longer leaves its value on the value stack").  Values in the initial
   environment must be well formed (64-bit integers; closures carrying
   fragment bodies): prog_good / env_good, preserved by evaluation
   (fragment_invariants).

   The theorems are named _partial because of the fragment restrictions above
   and because Ref.v's OutOfFuel / Unsupp answers are not related to anything
   (divergence is not covered).  What is outside is covered by differential
   testing of the real interpreter against the extracted Ref.v. *)
From Coq Require Import ZArith List.
From Garden Require Import Arith Machine Ref Refine RefineProps.
Import ListNotations.
Open Scope Z_scope.

(* Expression-level simulation, normal completion: if the reference evaluates
   e from s to the value v and state s', then from ANY machine state whose
   current frame is about to evaluate e (continuation t below it, any value
   stack, any callers) with the same scopes and the same output so far, no
   pending block (`nextb f = []`), not interrupted and without tick or stack
   limit, the machine reaches -- in finitely many steps, none of which fails --
   the state in which e has been consumed, v has been pushed iff e's value is
   used, the binding blocks are the scopes of s' and the output is that of s'. *)
Theorem exec_refines_eval_partial : forall p fuel s e v s' brk cnt,
  prog_good p = true -> eval p fuel s e = (Ok v, s') ->
  frag brk cnt e = true -> wa e = true -> env_good (scopes s) = true -> scopes s <> [] ->
  forall st f rest t,
    stack st = f :: rest -> todo f = (SNot, e) :: t -> blocks f = scopes s -> nextb f = [] ->
    out st = printed s -> interrupted st = false -> tick_limit st = None -> stack_limit st = None ->
  exists n st',
    run_steps p n st = Some st' /\
    stack st' = mkFrame t (if eused e then v :: vals f else vals f) (scopes s') [] (uses f) :: rest /\
    out st' = printed s' /\ interrupted st' = false /\ tick_limit st' = None /\ stack_limit st' = None.
Proof. exact RefineProps.exec_refines_eval_partial. Qed.
Print Assumptions exec_refines_eval_partial.

(* ... runtime errors: if the reference raises an error, the machine reaches,
   after finitely many successful steps, a step that fails with a Garden
   exception (EvalError::Exception), having printed the same output. *)
Theorem exec_refines_eval_error_partial : forall p fuel s e k s' brk cnt,
  prog_good p = true -> eval p fuel s e = (Ctl (CErr k), s') ->
  frag brk cnt e = true -> wa e = true -> env_good (scopes s) = true -> scopes s <> [] ->
  forall st f rest t,
    stack st = f :: rest -> todo f = (SNot, e) :: t -> blocks f = scopes s -> nextb f = [] ->
    out st = printed s -> interrupted st = false -> tick_limit st = None -> stack_limit st = None ->
  exists n st1 er st2,
    run_steps p n st = Some st1 /\ step p st1 = Failed er st2 /\ ekind_of er = KException /\ out st2 = printed s'.
Proof. exact RefineProps.exec_refines_eval_error_partial. Qed.
Print Assumptions exec_refines_eval_error_partial.

(* Whole programs (`garden run`): when the reference interpreter ends with a
   value, the machine run from the initial state ends with THE SAME value and
   the same printed output; when it ends with a runtime error, the machine run
   fails with a Garden exception after printing the same output. *)
Theorem machine_refines_ref_partial : forall p fuel exprs r s',
  prog_good p = true ->
  forallb in_fragment exprs = true -> well_annotated_toplevel exprs = true ->
  ref_run p fuel exprs = (r, s') ->
  match r with
  | Ok v => exists n st', run p n (init_state exprs None None) = RDone v st' /\ out st' = printed s'
  | Ctl (CErr _) => exists n er st', run p n (init_state exprs None None) = RFailed er st' /\
                                     ekind_of er = KException /\ out st' = printed s'
  | _ => True
  end.
Proof. exact RefineProps.machine_refines_ref_partial. Qed.
Print Assumptions machine_refines_ref_partial.

(* The side conditions are invariants of the reference semantics on the
   fragment: scope depth is preserved, environments and results stay well
   formed, break / continue escape only where the fragment allows. *)
Theorem fragment_invariants : forall p, prog_good p = true -> forall fuel s e r s' brk cnt,
  eval p fuel s e = (r, s') -> frag brk cnt e = true -> wa e = true -> env_good (scopes s) = true ->
  match r with
  | Ok v => (length (scopes s') = length (scopes s) /\ env_good (scopes s') = true) /\ vgood v = true
  | Ctl (CReturn v) => (length (scopes s') = length (scopes s) /\ env_good (scopes s') = true) /\ vgood v = true
  | Ctl CBreak => (length (scopes s') = length (scopes s) /\ env_good (scopes s') = true) /\ brk = true
  | Ctl CContinue => (length (scopes s') = length (scopes s) /\ env_good (scopes s') = true) /\ cnt = true
  | _ => True
  end.
Proof.
  intros p PG fuel s e r s' brk cnt H F W G.
  pose proof (RefineProps.eval_good p PG fuel s e brk cnt F W G) as X. rewrite H in X. exact X.
Qed.
Print Assumptions fragment_invariants.

(* ---- well_annotated: examples -------------------------------------------- *)
Definition mt (u : bool) : meta := {| used := u; pstart := 0; pend := 0 |}.

(* `if c { 1  2 } else { 3 }` in a used position: 1 unused, 2 and 3 used *)
Example wa_accepts :
  wa (EIf (mt true) (EVar (mt true) 5%N) [EInt (mt false) 1; EInt (mt true) 2] (Some [EInt (mt true) 3])) = true.
Proof. reflexivity. Qed.
Print Assumptions wa_accepts.

(* the same with the first statement of the block marked used: rejected *)
Example wa_rejects_used_statement :
  wa (EIf (mt true) (EVar (mt true) 5%N) [EInt (mt true) 1; EInt (mt true) 2] (Some [EInt (mt true) 3])) = false.
Proof. reflexivity. Qed.
Print Assumptions wa_rejects_used_statement.

(* an if without else never uses its branch values; loop bodies are unused *)
Example wa_if_without_else :
  wa (EIf (mt true) (EVar (mt true) 5%N) [EInt (mt false) 1] None) = true /\
  wa (EIf (mt true) (EVar (mt true) 5%N) [EInt (mt true) 1] None) = false /\
  wa (EWhile (mt true) (EVar (mt true) 5%N) [EInt (mt false) 1]) = true /\
  wa (EWhile (mt true) (EVar (mt true) 5%N) [EInt (mt true) 1]) = false.
Proof. repeat split; reflexivity. Qed.
Print Assumptions wa_if_without_else.

(* parentheses: the inner flag follows the outer one (the parser before the
   fix produced the second shape for `(7)` in statement position) *)
Example wa_parens :
  wa (EParen (mt false) (EInt (mt false) 7)) = true /\ wa (EParen (mt false) (EInt (mt true) 7)) = false.
Proof. split; reflexivity. Qed.
Print Assumptions wa_parens.

(* break in an operand position is outside the fragment, in statement position inside *)
Example fragment_break_position :
  in_fragment (EWhile (mt true) (EVar (mt true) 5%N)
                 [EIf (mt false) (EVar (mt true) 5%N) [EBreak (mt false)] None]) = true /\
  in_fragment (EWhile (mt true) (EVar (mt true) 5%N)
                 [EList (mt false) [EIf (mt true) (EVar (mt true) 5%N) [EBreak (mt true)] (Some [EInt (mt true) 2]);
                                    EInt (mt true) 1]]) = false.
Proof. split; reflexivity. Qed.
Print Assumptions fragment_break_position.

(* ---- non-vacuity ----------------------------------------------------------- *)
(* let x = 0  let i = 0
   while i < 5 { i += 1  if i == 3 { continue }  if i == 5 { break }  x = x + i }
   let f = fun(y) { return y * 2 }
   for y in [1, 2] { println(string_repr(f(y + x))) }
   match Some(x) { Some(z) => z + 1  None => 0 }
   -- prints 16 and 18, evaluates to 8; both sides computed, they agree. *)
Definition ty_opt : ident := 9%N.
Definition ex_p : prog :=
  {| globals := [(20%N, VBuiltin BiPrintln); (21%N, VBuiltin BiStringRepr);
                 (22%N, VCtor ty_opt 0 [83; 111; 109; 101]%N); (23%N, VEnum ty_opt 1 [78; 111; 110; 101]%N None)];
     funs := [] |}.
Definition v (x : N) : expr := EVar (mt true) x.
Definition i (z : Z) : expr := EInt (mt true) z.
Definition ex_exprs : list expr :=
  [ ELet (mt true) 10%N (i 0);
    ELet (mt true) 11%N (i 0);
    EWhile (mt true) (EBin (mt true) (BInt OLt) (v 11) (i 5))
      [ EUpd (mt false) UAdd 11%N (0, 0)%N (i 1);
        EIf (mt false) (EBin (mt true) BEq (v 11) (i 3)) [EContinue (mt false)] None;
        EIf (mt false) (EBin (mt true) BEq (v 11) (i 5)) [EBreak (mt false)] None;
        EAssign (mt false) 10%N (0, 0)%N (EBin (mt true) (BInt OAdd) (v 10) (v 11)) ];
    ELet (mt true) 12%N (EFun (mt true) [13%N] [EReturn (mt true) (Some (EBin (mt true) (BInt OMul) (v 13) (i 2)))]);
    EFor (mt true) 13%N (EList (mt true) [i 1; i 2])
      [ ECall (mt false) (v 20) [ECall (mt true) (v 21) [ECall (mt true) (v 12) [EBin (mt true) (BInt OAdd) (v 13) (v 10)]]] ];
    EMatch (mt true) (ECall (mt true) (v 22) [v 10])
      [ (22%N, (0, 0)%N, Some 14%N, [EBin (mt true) (BInt OAdd) (v 14) (i 1)]);
        (23%N, (0, 0)%N, None, [i 0]) ] ].

Example refinement_example :
  prog_good ex_p = true /\ forallb in_fragment ex_exprs = true /\ well_annotated_toplevel ex_exprs = true /\
  match ref_run ex_p 50 ex_exprs, run ex_p 1000 (init_state ex_exprs None None) with
  | (Ok rv, s'), RDone mv st =>
      rv = VInt 8 /\ mv = rv /\ out st = printed s' /\ printed s' = [[49; 56; 10]; [49; 54; 10]]%N
  | _, _ => False
  end.
Proof. vm_compute. repeat split. Qed.
Print Assumptions refinement_example.

(* ... and a program that ends in a runtime error on both sides: println("a") then 1 / 0 *)
Definition ex_err : list expr :=
  [ ECall (mt true) (v 20) [EStr (mt true) [97%N]]; EBin (mt true) (BInt ODiv) (i 1) (i 0) ].
Example refinement_error_example :
  forallb in_fragment ex_err = true /\ well_annotated_toplevel ex_err = true /\
  match ref_run ex_p 50 ex_err, run ex_p 1000 (init_state ex_err None None) with
  | (Ctl (CErr k), s'), RFailed er st => k = EArith /\ ekind_of er = KException /\ out st = printed s' /\ printed s' = [[97; 10]]%N
  | _, _ => False
  end.
Proof. vm_compute. repeat split. Qed.
Print Assumptions refinement_error_example.

(* ---- the fragment, construct by construct ---------------------------------- *)
(* match, return (also in operand position), for, closures, and break /
   continue as statements of a block are IN the fragment of the theorems
   above: *)
Example fragment_covers_match_return_for_break :
  in_fragment (EMatch (mt true) (v 5) [ (6%N, (0, 0)%N, Some 7%N, [v 7]); (0%N, (0, 0)%N, None, [i 0]) ]) = true /\
  in_fragment (EFun (mt true) [13%N] [EBin (mt true) (BInt OAdd) (i 1) (EReturn (mt true) (Some (v 13)))]) = true /\
  in_fragment (EFor (mt true) 13%N (v 5)
                 [ EIf (mt false) (v 6) [EContinue (mt false)] (Some [EBreak (mt false)]);
                   EMatch (mt false) (v 5) [ (0%N, (0, 0)%N, None, [EBreak (mt false)]) ] ]) = true.
Proof. repeat split; reflexivity. Qed.
Print Assumptions fragment_covers_match_return_for_break.

(* The side condition "break / continue only as a statement of a block, not
   inside an operand" is NECESSARY: the known finding
   C05:break-continue-in-operand-position on the model.
     [while t { [if t { break } else { 2 }, 1] }, 5]     (t a global bound to True)
   is well annotated, outside the fragment, and the machine (like the real
   interpreter) answers [Unit, 1] where the reference semantics answers
   [Unit, 5]: the refinement theorem is FALSE without the side condition. *)
Definition ex_operand_break : list expr :=
  [ EList (mt true)
      [ EWhile (mt true) (v 24)
          [ EList (mt false) [ EIf (mt true) (v 24) [EBreak (mt true)] (Some [i 2]); i 1 ] ];
        i 5 ] ].
Definition ex_p2 : prog := {| globals := (24%N, vtrue) :: globals ex_p; funs := [] |}.

Example break_in_operand_position_refuted :
  prog_good ex_p2 = true /\ well_annotated_toplevel ex_operand_break = true /\
  forallb in_fragment ex_operand_break = false /\
  match ref_run ex_p2 50 ex_operand_break, run ex_p2 1000 (init_state ex_operand_break None None) with
  | (Ok rv, _), RDone mv _ => rv = VList [vunit; VInt 5] /\ mv = VList [vunit; VInt 1] /\ mv <> rv
  | _, _ => False
  end.
Proof. vm_compute. repeat split. discriminate. Qed.
Print Assumptions break_in_operand_position_refuted.
