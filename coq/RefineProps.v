(* The evaluator model (Machine.v) refines the reference semantics (Ref.v).
   One induction on the fuel of Ref.eval, through one unfolding of it
   (Refine.eval_step, eval_unfold), proves two things of every evaluation in
   the fragment (sim, sim_all).  The invariant: scopes and values stay well
   formed and break / continue escape only where the fragment allows (good).
   The simulation: the machine, run from a state with the expression on top of
   its continuation, reaches what the reference answers -- the value pushed iff
   it is used, or the unwinding the signal calls for (lands, sim_ctl).  They go
   together because the simulation needs the invariant at every sub-evaluation;
   eval_good is the invariant alone. *)
From Coq Require Import ZArith Bool List Lia.
From Garden Require Import Base.Int64 Arith ArithSpec ArithProps ArithTables gen.Tables Machine MachineInv Ref Refine.
Import ListNotations.
Open Scope Z_scope.

Lemma eval_unfold p f : eval p (S f) = eval_step p (eval p f).
Proof. reflexivity. Qed.

(* Ref.eval threads results through `match x with (Ok v, s1) => k v s1 | other => other end`.
   `rbind x k` is that match (convertible with it, and with Refine.lift_args), so
   what holds of every such sequencing is proved once, about `rbind`. *)
Definition rbind {A B} (x : res A * st) (k : A -> st -> res B * st) : res B * st :=
  match x with
  | (Ok v, s1) => k v s1
  | (Ctl c, s1) => (Ctl c, s1)
  | (OutOfFuel, s1) => (OutOfFuel, s1)
  | (Unsupp, s1) => (Unsupp, s1)
  end.

(* what Ref.eval does with the answer x of a loop body, for `while` and `for` alike; k is the next iteration *)
Definition loop_next (x : res value * st) (k : st -> res value * st) : res value * st :=
  match x with
  | (Ok _, s2) | (Ctl CContinue, s2) => k s2
  | (Ctl CBreak, s2) => (Ok vunit, s2)
  | (Ctl (CReturn v), s2) => (Ctl (CReturn v), s2)
  | (Ctl (CErr e), s2) => (Ctl (CErr e), s2)
  | (OutOfFuel, s2) => (OutOfFuel, s2)
  | (Unsupp, s2) => (Unsupp, s2)
  end.

Lemma bind_assoc {A B C} (x : res A * st) (f : A -> st -> res B * st) (k : B -> st -> res C * st) :
  rbind (rbind x f) k = rbind x (fun v s => rbind (f v s) k).
Proof. destruct x as [[v|c| |] s]; reflexivity. Qed.

Lemma seq_of_cons ev x y l s : seq_of ev (x :: y :: l) s = rbind (ev s x) (fun _ s1 => seq_of ev (y :: l) s1).
Proof. reflexivity. Qed.

Lemma args_of_cons ev x l s :
  args_of ev (x :: l) s = rbind (args_of ev l s) (fun vs s1 => rbind (ev s1 x) (fun v s2 => (Ok (v :: vs), s2))).
Proof. reflexivity. Qed.

Lemma iter_of_cons ev x body v rest s :
  iter_of ev x body (v :: rest) s =
  loop_next (block_in_of ev (if N.eqb x underscore then [] else [(x, v)]) body s) (iter_of ev x body rest).
Proof. reflexivity. Qed.

Lemma run_toplevel_cons p fuel x y l s :
  run_toplevel p fuel s (x :: y :: l) = rbind (eval p fuel s x) (fun _ s1 => run_toplevel p fuel s1 (y :: l)).
Proof. reflexivity. Qed.

Ltac bools :=
  repeat match goal with
  | H : _ && _ = true |- _ => apply andb_prop in H; destruct H
  | H : Bool.eqb _ _ = true |- _ => apply eqb_prop in H
  | H : negb _ = true |- _ => apply negb_true_iff in H
  end.

Lemma reaches_refl p a : reaches p a a.
Proof. exists O. reflexivity. Qed.

Lemma reaches_step p a b c : step p a = Next b -> reaches p b c -> reaches p a c.
Proof. intros H [n R]. exists (S n). cbn [run_steps]. rewrite H. exact R. Qed.

Lemma run_steps_app p n : forall m a b c,
  run_steps p n a = Some b -> run_steps p m b = Some c -> run_steps p (n + m) a = Some c.
Proof.
  induction n as [|n IH]; intros m a b c H1 H2; cbn [run_steps Nat.add] in *.
  - inversion H1; subst. exact H2.
  - destruct (step p a); try discriminate. eapply IH; eassumption.
Qed.

Lemma reaches_trans p a b c : reaches p a b -> reaches p b c -> reaches p a c.
Proof. intros [n H1] [m H2]. exists (n + m)%nat. eapply run_steps_app; eassumption. Qed.

Lemma fails_reach p a b o : reaches p a b -> fails p b o -> fails p a o.
Proof.
  intros R (b' & er & c & R' & S & K & O). exists b', er, c.
  split; [eapply reaches_trans; eassumption|auto].
Qed.

Lemma forallb_In {A} (f : A -> bool) l x : forallb f l = true -> In x l -> f x = true.
Proof. intros H I. rewrite forallb_forall in H. auto. Qed.

Lemma assoc_In {A} x (l : list (ident * A)) v : assoc x l = Some v -> In (x, v) l.
Proof.
  induction l as [|[y w] l IH]; cbn [assoc]; [discriminate|].
  destruct (N.eqb x y) eqn:E.
  - intros H; inversion H; subst. apply N.eqb_eq in E. subst. left; reflexivity.
  - intros H. right. auto.
Qed.

Lemma assoc_good x b v : block_good b = true -> assoc x b = Some v -> vgood v = true.
Proof. intros G H. apply assoc_In in H. exact (forallb_In _ _ _ G H). Qed.

Lemma lookup_blocks_good x bs v : env_good bs = true -> lookup_blocks x bs = Some v -> vgood v = true.
Proof.
  induction bs as [|b bs IH]; cbn [lookup_blocks env_good forallb]; [discriminate|].
  intros G H. bools. destruct (assoc x b) eqn:E.
  - inversion H; subst. eapply assoc_good; eassumption.
  - auto.
Qed.

Lemma lookup_good p s x v : prog_good p = true -> env_good (scopes s) = true ->
  lookup p s x = Some v -> vgood v = true.
Proof.
  unfold lookup, prog_good. intros G E H. bools.
  destruct (lookup_blocks x (scopes s)) eqn:L.
  - inversion H; subst. eapply lookup_blocks_good; eassumption.
  - eapply assoc_good; eassumption.
Qed.

Lemma env_good_cons b bs : block_good b = true -> env_good bs = true -> env_good (b :: bs) = true.
Proof. intros B G. cbn [env_good forallb]. rewrite B. exact G. Qed.

Lemma block_good_cons x v b : vgood v = true -> block_good b = true -> block_good ((x, v) :: b) = true.
Proof. intros V B. unfold block_good. cbn [forallb snd]. rewrite V. exact B. Qed.

Lemma binder_good (x : ident) v : vgood v = true -> block_good (if N.eqb x underscore then [] else [(x, v)]) = true.
Proof. intros V. destruct (N.eqb x underscore); [reflexivity|]. now apply block_good_cons. Qed.

Lemma add_new_good x v bs : vgood v = true -> env_good bs = true -> env_good (add_new x v bs) = true.
Proof.
  unfold add_new. intros V G. destruct (N.eqb x underscore); [assumption|].
  destruct bs as [|b bs]; [reflexivity|]. cbn [env_good forallb] in G. bools.
  apply env_good_cons; [now apply block_good_cons|assumption].
Qed.

Lemma set_assoc_good x v b : vgood v = true -> block_good b = true -> block_good (set_assoc x v b) = true.
Proof.
  intros V. induction b as [|[y w] b IH]; cbn [set_assoc]; [auto|].
  unfold block_good in *. cbn [forallb snd]. intros G. bools.
  destruct (N.eqb x y); cbn [forallb snd]; rewrite ?V, ?H, ?H0, ?IH; auto.
Qed.

Lemma set_existing_good x v : forall bs bs', vgood v = true -> env_good bs = true ->
  set_existing x v bs = Some bs' -> env_good bs' = true.
Proof.
  induction bs as [|b bs IH]; intros bs' V G H; cbn [set_existing] in H; [discriminate|].
  cbn [env_good forallb] in G. bools.
  destruct (assoc x b).
  - inversion H; subst. apply env_good_cons; [now apply set_assoc_good|assumption].
  - destruct (set_existing x v bs) as [r|] eqn:E; [|discriminate]. inversion H; subst.
    apply env_good_cons; [assumption|]. eapply IH; eauto.
Qed.

Lemma set_existing_none x v : forall bs, set_existing x v bs = None <-> lookup_blocks x bs = None.
Proof.
  induction bs as [|b bs IH]; cbn [set_existing lookup_blocks]; [tauto|].
  destruct (assoc x b); [split; discriminate|].
  destruct (set_existing x v bs), (lookup_blocks x bs); split; intros H; try discriminate; try reflexivity.
  - destruct IH as [_ IH]. discriminate (IH eq_refl).
  - destruct IH as [IH _]. discriminate (IH eq_refl).
Qed.

Lemma set_existing_some_indep x v w : forall bs r, set_existing x v bs = Some r -> exists r', set_existing x w bs = Some r'.
Proof.
  intros bs r H. destruct (set_existing x w bs) eqn:E; [eauto|].
  apply (set_existing_none x w) in E. apply (set_existing_none x v) in E. congruence.
Qed.

Lemma bind_params_good ps : forall vs b, forallb vgood vs = true -> block_good b = true ->
  block_good (bind_params ps vs b) = true.
Proof.
  induction ps as [|q ps IH]; intros vs b V G; cbn [bind_params]; [assumption|].
  destruct vs as [|v vs]; [assumption|]. cbn [forallb] in V. bools.
  apply IH; [assumption|]. destruct (N.eqb q underscore); [assumption|]. now apply block_good_cons.
Qed.

Lemma bind_params_rev ps : forall vs b, bind_params ps vs b = rev (zip_params ps vs) ++ b.
Proof.
  induction ps as [|q ps IH]; intros vs b; cbn [bind_params zip_params]; [reflexivity|].
  destruct vs as [|v vs]; [reflexivity|].
  rewrite IH. destruct (N.eqb q underscore); [reflexivity|].
  cbn [rev]. rewrite <- app_assoc. reflexivity.
Qed.

Lemma param_block_eq ps vs : param_block ps vs = bind_params ps vs [].
Proof. unfold param_block. rewrite bind_params_rev, app_nil_r. reflexivity. Qed.

Lemma arm_spec_exec o a b : in64 a = true -> in64 b = true ->
  arm_sem true (int_arm o) a b = spec_exec o a b.
Proof. intros. rewrite spec_exec_eq. now apply int_binop_spec_lemma. Qed.

Lemma upd_spec_exec u a b : in64 a = true -> in64 b = true ->
  arm_sem true (upd_arm u) a b = spec_exec (upd_as_binop u) a b.
Proof. intros. rewrite upd_spec_lemma by assumption. now apply arm_spec_exec. Qed.

Lemma spec_exec_range o a b z : in64 a = true -> in64 b = true -> spec_exec o a b = Val z -> in64 z = true.
Proof. rewrite spec_exec_eq. apply spec_in_range. Qed.

Lemma upd_spec_val u a b : exists z, spec_exec (upd_as_binop u) a b = Val z.
Proof. destruct u; cbn; eauto. Qed.

Lemma vbool_good b : vgood (vbool b) = true.
Proof. destruct b; reflexivity. Qed.

(* Ref.v asks by pattern matching whether a value is an integer, a string, an
   enum value or constructor; the machine asks int_of, str_of.  Put in the
   machine's terms, each question has two answers instead of nine. *)
Lemma match_int {A} v (f : Z -> A) (d : A) :
  match v with VInt a => f a | _ => d end = match int_of v with Some a => f a | None => d end.
Proof. destruct v; reflexivity. Qed.

Lemma match_str {A} v (f : text -> A) (d : A) :
  match v with VStr a => f a | _ => d end = match str_of v with Some a => f a | None => d end.
Proof. destruct v; reflexivity. Qed.

Lemma int_of_some v a : int_of v = Some a -> v = VInt a.
Proof. destruct v; intros [= ->]; reflexivity. Qed.

Definition tag_of (v : value) : option (ident * N) :=
  match v with VEnum t i _ _ | VCtor t i _ => Some (t, i) | _ => None end.

Lemma match_tag {A} v (f : ident -> N -> A) (d : A) :
  match v with VEnum t i _ _ => f t i | VCtor t i _ => f t i | _ => d end =
  match tag_of v with Some (t, i) => f t i | None => d end.
Proof. destruct v; reflexivity. Qed.

(* Invariants of the reference semantics on the fragment: scope depth is
   preserved, every value is well-formed, and break / continue escape only
   where the fragment allows them. *)
Definition st_ok (s s' : st) : Prop :=
  length (scopes s') = length (scopes s) /\ env_good (scopes s') = true.

Definition res_good {A} (gv : A -> Prop) (brk cnt : bool) (r : res A) (s s' : st) : Prop :=
  match r with
  | Ok v => st_ok s s' /\ gv v
  | Ctl (CReturn v) => st_ok s s' /\ vgood v = true
  | Ctl CBreak => st_ok s s' /\ brk = true
  | Ctl CContinue => st_ok s s' /\ cnt = true
  | _ => True
  end.

Definition vg (v : value) : Prop := vgood v = true.
Definition vsg (l : list value) : Prop := forallb vgood l = true.

Definition good (brk cnt : bool) (s : st) (x : res value * st) : Prop :=
  let (r, s') := x in res_good vg brk cnt r s s'.

Definition good_at (ev : st -> expr -> res value * st) : Prop :=
  forall s e brk cnt, frag brk cnt e = true -> wa e = true -> env_good (scopes s) = true ->
    good brk cnt s (ev s e).

Lemma st_ok_refl s : env_good (scopes s) = true -> st_ok s s.
Proof. split; auto. Qed.

Lemma st_ok_trans a b c : st_ok a b -> st_ok b c -> st_ok a c.
Proof. unfold st_ok. intros [] []. split; [congruence|assumption]. Qed.

Lemma st_ok_nonempty s s' : st_ok s s' -> scopes s <> [] -> scopes s' <> [].
Proof. intros [L _] N E. rewrite E in L. destruct (scopes s); [contradiction|discriminate]. Qed.

(* a sub-result other than Ok passes through unchanged *)
Lemma res_good_pass {A B} (g1 : A -> Prop) (g2 : B -> Prop) b1 c1 b2 c2 (r : res A) (r' : res B) s0 s s' :
  res_good g1 b1 c1 r s s' -> st_ok s0 s ->
  (b1 = true -> b2 = true) -> (c1 = true -> c2 = true) ->
  match r, r' with
  | Ok _, _ => False
  | Ctl c, Ctl c' => c = c'
  | OutOfFuel, OutOfFuel => True
  | Unsupp, Unsupp => True
  | _, _ => False
  end ->
  res_good g2 b2 c2 r' s0 s'.
Proof.
  intros G S0 HB HC M. destruct r as [a|c| |], r' as [a'|c'| |]; try contradiction; cbn in *; auto.
  subst c'. destruct c; cbn in *; auto; destruct G as [G1 G2]; (split; [eapply st_ok_trans; eassumption|auto]).
Qed.

Lemma good_ok b c v s : env_good (scopes s) = true -> vg v -> good b c s (Ok v, s).
Proof. intros G V. split; [now apply st_ok_refl|exact V]. Qed.

Lemma good_trans b c x s s1 : st_ok s s1 -> good b c s1 x -> good b c s x.
Proof.
  intros S. destruct x as [[v|k| |] s']; [|destruct k|..]; cbn; auto;
    intros [R1 R2]; (split; [eapply st_ok_trans; eassumption|assumption]).
Qed.

Lemma good_weaken b c x s : good false false s x -> good b c s x.
Proof. destruct x as [[v|k| |] s']; [|destruct k|..]; cbn; auto; intros [R1 R2]; discriminate. Qed.

Lemma wab_cons u x y l : wa_block u (x :: y :: l) = true -> eused x = false /\ wa x = true /\ wa_block u (y :: l) = true.
Proof. unfold wa_block. cbn [wa_block_with]. intros H. bools. auto. Qed.

Lemma wab_one u x : wa_block u [x] = true -> eused x = u /\ wa x = true.
Proof. unfold wa_block. cbn [wa_block_with]. intros H. bools. auto. Qed.

Lemma push_pop_ok extra s s1 : st_ok (push_scope extra s) s1 -> st_ok s (pop_scope s1).
Proof.
  unfold st_ok, push_scope, pop_scope. cbn [scopes]. intros [L G].
  destruct (scopes s1) as [|b bs]; [discriminate|]. cbn [tl length] in *.
  cbn [env_good forallb] in G. bools. split; [lia|assumption].
Qed.

Lemma good_pop extra s brk cnt (r : res value) s1 :
  good brk cnt (push_scope extra s) (r, s1) -> good brk cnt s (r, pop_scope s1).
Proof.
  destruct r as [v|[]| |]; cbn; auto; intros [R1 R2]; (split; [exact (push_pop_ok extra _ _ R1)|exact R2]).
Qed.

Lemma good_loop_next x k s :
  good true true s x -> (forall s2, st_ok s s2 -> good false false s2 (k s2)) ->
  good false false s (loop_next x k).
Proof.
  intros Gb K. destruct x as [[v|[]| |] s2]; cbn [loop_next]; try exact Gb;
    destruct Gb as [S2 _]; exact (good_trans _ _ _ _ _ S2 (K _ S2)).
Qed.

Lemma set_existing_ok x v s sc : set_existing x v (scopes s) = Some sc -> vgood v = true ->
  env_good (scopes s) = true -> st_ok s (mkSt sc (printed s)).
Proof. intros SE V G. split; [exact (set_existing_length _ _ _ _ SE)|eapply set_existing_good; eassumption]. Qed.

(* eval_block answers an empty block at once: Unit is pushed if the block's value is used *)
Definition block_vals (ub : bool) (body : list expr) (vs : list value) : list value :=
  match body with [] => if ub then vunit :: vs else vs | _ => vs end.

Lemma block_vals_unused body vs : block_vals false body vs = vs.
Proof. destruct body; reflexivity. Qed.

Lemma eval_block_cfg t vs bs nb u ub body :
  eval_block (mkFrame t vs bs nb u) ub body =
  mkFrame (fresh body ++ t) (block_vals ub body vs) (add_all ([] :: bs) nb) [] u.
Proof. destruct body, ub; reflexivity. Qed.

Lemma add_all_binder (x : ident) (v : value) bs :
  add_all ([] :: bs) (if N.eqb x underscore then [] else [(x, v)]) =
  (if N.eqb x underscore then [] else [(x, v)]) :: bs.
Proof.
  destruct (N.eqb x underscore) eqn:E; [reflexivity|]. cbn [add_all]. unfold add_new. rewrite E. reflexivity.
Qed.

(* continuation entries that an unwinding `return` just discards *)
Definition nopop (x : estate * expr) : Prop := entry_pops (fst x) (snd x) = false.

Lemma return_unwind_nopop pre : forall t bs, Forall nopop pre ->
  return_unwind (pre ++ t) bs = return_unwind t bs.
Proof.
  induction pre as [|[s e] pre IH]; intros t bs F; [reflexivity|].
  inversion F as [|? ? P F']; subst. cbv [nopop fst snd] in P. cbn [app return_unwind]. rewrite P. auto.
Qed.

Lemma break_unwind_fresh l t bs vs : break_unwind (fresh l ++ t) bs vs = break_unwind t bs vs.
Proof. induction l as [|x l IH]; [reflexivity|exact IH]. Qed.

Lemma continue_unwind_fresh l t bs : continue_unwind (fresh l ++ t) bs = continue_unwind t bs.
Proof. induction l as [|x l IH]; [reflexivity|exact IH]. Qed.

Lemma return_unwind_app_fresh l t bs : return_unwind (fresh l ++ t) bs = return_unwind t bs.
Proof. induction l as [|x l IH]; [reflexivity|exact IH]. Qed.

Lemma return_unwind_fresh l bs : return_unwind (fresh l) bs = Some bs.
Proof. induction l as [|x l IH]; [reflexivity|exact IH]. Qed.

Lemma pushed_shape extra s s1 : st_ok (push_scope extra s) s1 -> scopes s <> [] ->
  exists b0 b1 bs, scopes s1 = b0 :: b1 :: bs.
Proof.
  intros [L _] N. cbn [push_scope scopes length] in L.
  destruct (scopes s) as [|x l0]; [contradiction|]. destruct (scopes s1) as [|b0 [|b1 bs]]; try discriminate. eauto.
Qed.

Lemma nth_error_skipn_nil {A} (l : list A) k : skipn k l = [] -> nth_error l k = None.
Proof. revert l. induction k; intros [|x l] H; cbn in *; try reflexivity; [discriminate|auto]. Qed.

Lemma nth_error_skipn_cons {A} (l : list A) k v r : skipn k l = v :: r -> nth_error l k = Some v /\ skipn (S k) l = r.
Proof.
  revert l. induction k; intros [|x l] H; cbn [skipn nth_error] in *; try discriminate.
  - injection H as <- <-. auto.
  - apply IHk in H. exact H.
Qed.

Lemma run_steps_run p n : forall a b m, run_steps p n a = Some b -> run p (n + m) a = run p m b.
Proof.
  induction n as [|n IH]; intros a b m R; cbn [run_steps] in R.
  - inversion R; subst. reflexivity.
  - cbn [Nat.add run]. destruct (step p a); try discriminate. now apply IH.
Qed.

Section Sim.
Variable p : prog.
Hypothesis PG : prog_good p = true.

Lemma step_cfg es e t vs bs u rest tk o :
  step p (cfg ((es, e) :: t) vs bs u rest tk o) =
    match exec p (mkFrame t vs bs [] u) es e with
    | XOk f' pr => Next (mkState (f' :: rest) (tk + 1) (pr ++ o) false None None)
    | XCall f' callee => Next (mkState (callee :: f' :: rest) (tk + 1) o false None None)
    | XErr er => Failed er (mkState (mkFrame ((es, e) :: t) vs bs [] u :: rest) (tk + 1) o false None None)
    | XPanic => Crashed
    | XUnsupported => Unsupported
    end.
Proof. reflexivity. Qed.

Lemma step_ok es e t vs bs u rest tk o t' vs' bs' pr :
  exec p (mkFrame t vs bs [] u) es e = XOk (mkFrame t' vs' bs' [] u) pr ->
  step p (cfg ((es, e) :: t) vs bs u rest tk o) = Next (cfg t' vs' bs' u rest (tk + 1) (pr ++ o)).
Proof. intros H. rewrite step_cfg, H. reflexivity. Qed.

Lemma step_val es e t vs bs u rest tk o t' vs' bs' pr (b : bool) v :
  exec p (mkFrame t vs bs [] u) es e = XOk (push_val_if b (mkFrame t' vs' bs' [] u) v) pr ->
  step p (cfg ((es, e) :: t) vs bs u rest tk o) =
  Next (cfg t' (if b then v :: vs' else vs') bs' u rest (tk + 1) (pr ++ o)).
Proof. intros H. rewrite step_cfg, H. destruct b; reflexivity. Qed.

Lemma get_var_cfg t vs s nb u x : get_var p (mkFrame t vs (scopes s) nb u) x = lookup p s x.
Proof. reflexivity. Qed.

(* what the machine does when the reference raises a control signal while the
   continuation below the current expression is t and the value stack vs *)
Definition sim_ctl (c : ctl) (s' : st) (t : list (estate * expr)) (vs : list value) (u : bool)
           (rest : list frame) (start : state) : Prop :=
  match c with
  | CErr _ => fails p start (printed s')
  | CBreak => forall t' bs' vs' lu, break_unwind t (scopes s') vs = Some (t', bs', vs', Some lu) ->
      exists tk', reaches p start (cfg t' (if lu then vunit :: vs' else vs') bs' u rest tk' (printed s'))
  | CContinue => forall t' bs', continue_unwind t (scopes s') = Some (t', bs') ->
      exists tk', reaches p start (cfg t' vs bs' u rest tk' (printed s'))
  | CReturn v => forall bs', return_unwind t (scopes s') = Some bs' ->
      exists tk' vs', reaches p start (cfg [] (v :: vs') bs' u rest tk' (printed s'))
  end.

(* What it does when the reference answers x: a value is pushed iff it is used (ub). As in Refine.cfg, u is the
   top frame's `uses`, rest the frames below it (neither changes), tk' the ticks, which are not tracked. *)
Definition lands (x : res value * st) (ub : bool) (t : list (estate * expr)) (vs : list value)
           (u : bool) (rest : list frame) (start : state) : Prop :=
  match x with
  | (Ok v, s') => exists tk', reaches p start (cfg t (if ub then v :: vs else vs) (scopes s') u rest tk' (printed s'))
  | (Ctl c, s') => sim_ctl c s' t vs u rest start
  | _ => True
  end.

(* x is the reference's answer from s, where break / continue may escape as brk / cnt say;
   the machine begins in `start` *)
Definition sim (s : st) (brk cnt : bool) (x : res value * st) (ub : bool) (t : list (estate * expr))
           (vs : list value) (u : bool) (rest : list frame) (start : state) : Prop :=
  good brk cnt s x /\ (scopes s <> [] -> lands x ub t vs u rest start).

Lemma sim_ctl_reach c s' t vs u rest a b :
  reaches p a b -> sim_ctl c s' t vs u rest b -> sim_ctl c s' t vs u rest a.
Proof.
  intros R S. destruct c; cbn [sim_ctl] in *.
  - intros t' bs' vs' lu H. destruct (S _ _ _ _ H) as [tk' R']. exists tk'. eapply reaches_trans; eassumption.
  - intros t' bs' H. destruct (S _ _ H) as [tk' R']. exists tk'. eapply reaches_trans; eassumption.
  - intros bs' H. destruct (S _ H) as (tk' & vs' & R'). exists tk', vs'. eapply reaches_trans; eassumption.
  - eapply fails_reach; eassumption.
Qed.

Lemma lands_reach x ub t vs u rest a b :
  reaches p a b -> lands x ub t vs u rest b -> lands x ub t vs u rest a.
Proof.
  intros R S. destruct x as [[v|c| |] s']; cbn [lands] in *; auto.
  - destruct S as [tk' R']. exists tk'. eapply reaches_trans; eassumption.
  - eapply sim_ctl_reach; eassumption.
Qed.

Lemma sim_reach s brk cnt x ub t vs u rest a b :
  reaches p a b -> sim s brk cnt x ub t vs u rest b -> sim s brk cnt x ub t vs u rest a.
Proof. intros R [Gx S]. exact (conj Gx (fun N => lands_reach _ _ _ _ _ _ _ _ R (S N))). Qed.

Lemma sim_next s brk cnt x ub t vs u rest a b :
  step p a = Next b -> sim s brk cnt x ub t vs u rest b -> sim s brk cnt x ub t vs u rest a.
Proof. intros H. apply sim_reach. eapply reaches_step; [eassumption|apply reaches_refl]. Qed.

Lemma sim_here s brk cnt v s' ub t vs u rest tk : good brk cnt s (Ok v, s') ->
  sim s brk cnt (Ok v, s') ub t vs u rest (cfg t (if ub then v :: vs else vs) (scopes s') u rest tk (printed s')).
Proof. intros Gx. split; [exact Gx|]. intros _. exists tk. apply reaches_refl. Qed.

Lemma sim_exn s brk cnt k s' ub t0 vs0 es e t vs u rest tk pos :
  exec p (mkFrame t vs (scopes s') [] u) es e = exn pos ->
  sim s brk cnt (Ctl (CErr k), s') ub t0 vs0 u rest (cfg ((es, e) :: t) vs (scopes s') u rest tk (printed s')).
Proof.
  intros H. split; [exact I|]. intros _. eexists _, _, _. split; [apply reaches_refl|]. rewrite step_cfg, H. repeat split.
Qed.

Lemma sim_weaken s brk cnt x ub t vs u rest a :
  sim s false false x ub t vs u rest a -> sim s brk cnt x ub t vs u rest a.
Proof. intros [Gx S]. exact (conj (good_weaken _ _ _ _ Gx) S). Qed.

Definition sim_expr (ev : st -> expr -> res value * st) (s : st) (e : expr) : Prop :=
  forall brk cnt, frag brk cnt e = true -> wa e = true -> env_good (scopes s) = true ->
  forall t vs u rest tk,
    sim s brk cnt (ev s e) (eused e) t vs u rest (cfg ((SNot, e) :: t) vs (scopes s) u rest tk (printed s)).

Definition sim_expr_at (ev : st -> expr -> res value * st) : Prop := forall s e, sim_expr ev s e.

(* a while loop that has been entered: its condition is about to be evaluated *)
Definition sim_while_at (ev : st -> expr -> res value * st) : Prop :=
  forall s m c body brk cnt,
    frag brk cnt (EWhile m c body) = true -> wa (EWhile m c body) = true -> env_good (scopes s) = true ->
  forall t vs u rest tk,
    sim s brk cnt (ev s (EWhile m c body)) (used m) t vs u rest
      (cfg ((SNot, c) :: (SPart BWill, EWhile m c body) :: t) vs (scopes s) u rest tk (printed s)).

Section Step.
Variable ev : st -> expr -> res value * st.
Hypothesis SV : sim_expr_at ev.
Hypothesis SW : sim_while_at ev.

(* A sub-expression x, in the fragment with b1 c1, evaluated with the entries
   `pre` between it and the continuation t of the whole expression: its signals
   reach t (L), its value is handed to what follows (K). *)
Lemma sim_sub x pre s k b1 c1 brk cnt ub t vs0 vs u rest tk :
  frag b1 c1 x = true -> wa x = true -> env_good (scopes s) = true ->
  (b1 = true -> brk = true) -> (c1 = true -> cnt = true) ->
  (forall c s1 a, res_good vg b1 c1 (Ctl c) s s1 ->
     sim_ctl c s1 (pre ++ t) vs u rest a -> sim_ctl c s1 t vs0 u rest a) ->
  (forall v s1 tk1, st_ok s s1 -> vg v ->
     sim s1 brk cnt (k v s1) ub t vs0 u rest
       (cfg (pre ++ t) (if eused x then v :: vs else vs) (scopes s1) u rest tk1 (printed s1))) ->
  sim s brk cnt (rbind (ev s x) k) ub t vs0 u rest (cfg ((SNot, x) :: pre ++ t) vs (scopes s) u rest tk (printed s)).
Proof.
  intros F W G HB HC L K. destruct (SV _ _ _ _ F W G (pre ++ t) vs u rest tk) as [Gx Sx].
  destruct (ev s x) as [[v|c| |] s1]; cbn [rbind]; [| |now split..].
  - destruct Gx as [S1 V]. split; [exact (good_trans _ _ _ _ _ S1 (proj1 (K v s1 tk S1 V)))|].
    intros N. destruct (Sx N) as [tk1 R1].
    exact (lands_reach _ _ _ _ _ _ _ _ R1 (proj2 (K v s1 tk1 S1 V) (st_ok_nonempty _ _ S1 N))).
  - split; [|intros N; exact (L _ _ _ Gx (Sx N))].
    exact (res_good_pass vg vg _ _ _ _ (Ctl c) (Ctl c) _ _ _ Gx (st_ok_refl _ G) HB HC eq_refl).
Qed.

Lemma sim_operand x pre s k brk cnt ub t vs0 vs u rest tk :
  frag false false x = true -> eused x = true -> wa x = true -> env_good (scopes s) = true -> Forall nopop pre ->
  (forall v s1 tk1, st_ok s s1 -> vg v ->
     sim s1 brk cnt (k v s1) ub t vs0 u rest (cfg (pre ++ t) (v :: vs) (scopes s1) u rest tk1 (printed s1))) ->
  sim s brk cnt (rbind (ev s x) k) ub t vs0 u rest (cfg ((SNot, x) :: pre ++ t) vs (scopes s) u rest tk (printed s)).
Proof.
  intros F U W G P K. eapply sim_sub; try eassumption; try discriminate; [|rewrite U; exact K].
  intros c s1 a Gc S. destruct c; try (destruct Gc; discriminate); [|exact S].
  intros bs' H. apply S. rewrite return_unwind_nopop; assumption.
Qed.

(* operands evaluated right to left, their values in source order on the value stack *)
Lemma sim_operands l : forall pre s k brk cnt ub t vs0 vs u rest tk,
  forallb (frag false false) l = true -> forallb wa_sub l = true -> env_good (scopes s) = true -> Forall nopop pre ->
  (forall vl s1 tk1, st_ok s s1 -> vsg vl -> length vl = length l ->
     sim s1 brk cnt (k vl s1) ub t vs0 u rest (cfg (pre ++ t) (vl ++ vs) (scopes s1) u rest tk1 (printed s1))) ->
  sim s brk cnt (rbind (args_of ev l s) k) ub t vs0 u rest
    (cfg (fresh (rev l) ++ pre ++ t) vs (scopes s) u rest tk (printed s)).
Proof.
  induction l as [|x l IH]; intros pre s k brk cnt ub t vs0 vs u rest tk F W G P K.
  - exact (K [] s tk (st_ok_refl _ G) eq_refl eq_refl).
  - rewrite args_of_cons, bind_assoc. cbn [forallb] in F, W. unfold wa_sub in W at 1. bools.
    replace (fresh (rev (x :: l)) ++ pre ++ t) with (fresh (rev l) ++ ((SNot, x) :: pre) ++ t)
      by (unfold fresh; cbn [rev]; rewrite map_app, <- app_assoc; reflexivity).
    apply IH; [assumption..|constructor; [reflexivity|exact P]|].
    intros vl s1 tk1 S1 V1 L1. rewrite bind_assoc.
    apply sim_operand; [try assumption..|]; [exact (proj2 S1)|].
    intros v s2 tk2 S2 V2.
    apply (K (v :: vl) s2 tk2 (st_ok_trans _ _ _ S1 S2)); [|cbn [length]; congruence].
    unfold vsg. cbn [forallb]. rewrite V2. exact V1.
Qed.

Definition sim_case (e : expr) : Prop := forall s, sim_expr (eval_step p ev) s e.

(* computes `exec` on a given entry by unfolding the frame operations (cbv: one
   conversion for the kernel to check; stepwise unfolding leaves one per step) *)
Ltac msimp :=
  cbv beta iota zeta delta [exec push_todo push_val pop_val pop_block set_vals set_blocks set_todo set_nextb
                            todo vals blocks nextb uses].

Ltac mstep := eapply sim_next; [apply step_ok; msimp; reflexivity|].

Lemma sim_EInt m z : sim_case (EInt m z).
Proof.
  intros s brk cnt F W G t vs u rest tk.
  eapply sim_next; [apply step_val with (pr := []); reflexivity|]. now apply sim_here, good_ok.
Qed.

Lemma sim_EStr m x : sim_case (EStr m x).
Proof.
  intros s brk cnt F W G t vs u rest tk.
  eapply sim_next; [apply step_val with (pr := []); reflexivity|]. now apply sim_here, good_ok.
Qed.

Lemma sim_EFun m ps body : sim_case (EFun m ps body).
Proof.
  intros s brk cnt F W G t vs u rest tk.
  eapply sim_next; [apply step_val with (pr := []); reflexivity|]. apply sim_here, good_ok; [exact G|].
  apply andb_true_intro. split; [exact G|]. apply andb_true_intro. split; [exact F|exact W].
Qed.

Lemma sim_EVar m x : sim_case (EVar m x).
Proof.
  intros s brk cnt F W G t vs u rest tk. cbn [eval_step].
  destruct (lookup p s x) as [v|] eqn:L.
  - eapply sim_next; [apply step_val; cbn [exec]; rewrite get_var_cfg, L; reflexivity|].
    apply sim_here, good_ok; [exact G|]. eapply lookup_good; eassumption.
  - eapply sim_exn. cbn [exec]. rewrite get_var_cfg, L. reflexivity.
Qed.

Lemma sim_EContinue m : sim_case (EContinue m).
Proof.
  intros s brk cnt F W G t vs u rest tk. split; [exact (conj (st_ok_refl _ G) F)|].
  intros _ t' bs' CU. exists (tk + 1)%N.
  eapply reaches_step; [apply step_ok; msimp; rewrite CU; reflexivity|apply reaches_refl].
Qed.

Lemma sim_EBreak m : sim_case (EBreak m).
Proof.
  intros s brk cnt F W G t vs u rest tk. split; [exact (conj (st_ok_refl _ G) F)|].
  intros _ t' bs' vs' lu BU. exists (tk + 1)%N.
  eapply reaches_step; [apply step_val; msimp; rewrite BU; reflexivity|apply reaches_refl].
Qed.

Lemma sim_EParen m inner : sim_case (EParen m inner).
Proof.
  intros s brk cnt F W G t vs u rest tk. cbn [frag wa] in F, W.
  apply andb_prop in W as [U W]. apply eqb_prop in U.
  mstep. change (eused (EParen m inner)) with (used m). rewrite <- U.
  exact (SV _ _ _ _ F W G t vs u rest (tk + 1)%N).
Qed.

Lemma binop_agree t lv rv vs bs u m o lp rp :
  vgood lv = true -> vgood rv = true ->
  match apply_binop o lv rv with
  | Ok v => vgood v = true /\
      eval_binop (mkFrame t (rv :: lv :: vs) bs [] u) m o lp rp = XOk (push_val_if (used m) (mkFrame t vs bs [] u) v) []
  | Ctl c => (exists k, c = CErr k) /\ exists pos, eval_binop (mkFrame t (rv :: lv :: vs) bs [] u) m o lp rp = exn pos
  | _ => True
  end.
Proof.
  intros VL VR. unfold eval_binop, apply_binop. cbn [vals set_vals todo blocks nextb uses]. destruct o.
  - rewrite match_int. destruct (int_of lv) as [a|] eqn:IL; [apply int_of_some in IL as ->|eauto].
    rewrite match_int. destruct (int_of rv) as [b|] eqn:IR; [apply int_of_some in IR as ->|eauto].
    cbn [vgood] in VL, VR. rewrite arm_spec_exec by assumption. unfold int_binop.
    destruct (spec_exec o a b) eqn:E; [| |eauto|exact I].
    + split; [exact (spec_exec_range _ _ _ _ VL VR E)|reflexivity].
    + split; [apply vbool_good|reflexivity].
  - split; [apply vbool_good|reflexivity].
  - split; [apply vbool_good|reflexivity].
  - destruct (as_bool lv); eauto. destruct (as_bool rv); [|eauto]. split; [apply vbool_good|reflexivity].
  - destruct (as_bool lv); eauto. destruct (as_bool rv); [|eauto]. split; [apply vbool_good|reflexivity].
  - rewrite match_str. destruct (str_of lv); eauto. rewrite match_str. destruct (str_of rv); eauto.
Qed.

Lemma sim_EBin m o l r : sim_case (EBin m o l r).
Proof.
  intros s brk cnt F W G t vs u rest tk. cbn [eval_step]. cbn [frag wa] in F, W. bools.
  mstep.
  apply (sim_operand l [_; _]); [assumption..|repeat constructor|]. intros lv s1 tk1 S1 V1.
  apply (sim_operand r [_]); [assumption..|exact (proj2 S1)|repeat constructor|]. intros rv s2 tk2 S2 V2.
  pose proof (binop_agree t lv rv vs (scopes s2) u m o (epos l) (epos r) V1 V2) as BA.
  destruct (apply_binop o lv rv) as [v|c| |]; [| |now split..].
  - eapply sim_next; [apply step_val; exact (proj2 BA)|]. apply sim_here, good_ok; [exact (proj2 S2)|exact (proj1 BA)].
  - destruct BA as [[k ->] [pos BA]]. eapply sim_exn. exact BA.
Qed.

Lemma sim_ELet m x rhs : sim_case (ELet m x rhs).
Proof.
  intros s brk cnt F W G t vs u rest tk. cbn [eval_step]. cbn [frag wa] in F, W. bools.
  mstep.
  apply (sim_operand rhs [_]); [assumption..|repeat constructor|]. intros v s1 tk1 [_ G1] V1.
  eapply sim_next; [apply step_val; msimp; reflexivity|]. apply sim_here.
  split; [|reflexivity]. split; cbn [bind scopes]; [apply add_new_length|now apply add_new_good].
Qed.

Lemma sim_EAssign m x xpos rhs : sim_case (EAssign m x xpos rhs).
Proof.
  intros s brk cnt F W G t vs u rest tk. cbn [eval_step]. cbn [frag wa] in F, W. bools.
  mstep.
  apply (sim_operand rhs [_]); [assumption..|repeat constructor|]. intros v s1 tk1 [_ G1] V1.
  destruct (set_existing x v (scopes s1)) as [sc|] eqn:SE.
  - destruct (lookup_blocks x (scopes s1)) eqn:LB; [|apply (set_existing_none x v) in LB; congruence].
    eapply sim_next; [apply step_val; msimp; rewrite LB, SE; reflexivity|].
    apply sim_here. split; [now apply (set_existing_ok x v)|reflexivity].
  - apply set_existing_none in SE. eapply sim_exn. msimp. rewrite SE. reflexivity.
Qed.

Lemma sim_EUpd m uo x xpos rhs : sim_case (EUpd m uo x xpos rhs).
Proof.
  intros s brk cnt F W G t vs u rest tk. cbn [eval_step]. cbn [frag wa] in F, W. bools.
  mstep.
  apply (sim_operand rhs [_]); [assumption..|repeat constructor|]. intros rv s1 tk1 [_ G1] V1.
  (* the machine looks at the variable, then at the operand; every ill-typed case is an exception *)
  destruct (lookup p s1 x) as [cur|] eqn:L;
    [|eapply sim_exn; msimp; rewrite get_var_cfg, L; reflexivity].
  pose proof (lookup_good _ _ _ _ PG G1 L) as VC.
  rewrite match_int. destruct (int_of cur) as [a|] eqn:IC;
    [|eapply sim_exn; msimp; rewrite get_var_cfg, L, IC; reflexivity].
  rewrite match_int. destruct (int_of rv) as [b|] eqn:IR;
    [|eapply sim_exn; msimp; rewrite get_var_cfg, L, IC, IR; reflexivity].
  apply int_of_some in IC as ->. apply int_of_some in IR as ->.
  unfold int_binop. destruct (upd_spec_val uo a b) as [z SZ]. rewrite SZ.
  destruct (set_existing x (VInt z) (scopes s1)) as [sc|] eqn:SE; [|now split].
  eapply sim_next.
  { apply step_val. msimp. rewrite get_var_cfg, L. cbn [int_of]. rewrite upd_spec_exec, SZ, SE by assumption. reflexivity. }
  apply sim_here. split; [|reflexivity].
  exact (set_existing_ok x (VInt z) _ _ SE (spec_exec_range _ _ _ _ VC V1 SZ) G1).
Qed.

Lemma sim_EReturn m oe : sim_case (EReturn m oe).
Proof.
  intros s brk cnt F W G t vs u rest tk. cbn [eval_step]. cbn [frag wa] in F, W.
  assert (RET : forall v s1 vs1 tk1, env_good (scopes s1) = true -> vg v ->
            sim s1 brk cnt (Ctl (CReturn v), s1) (used m) t vs u rest
              (cfg ((SDone, EReturn m oe) :: t) (v :: vs1) (scopes s1) u rest tk1 (printed s1))).
  { intros v s1 vs1 tk1 G1 V1. split; [exact (conj (st_ok_refl _ G1) V1)|].
    intros _ bs' RU. exists (tk1 + 1)%N, vs1.
    eapply reaches_step; [apply step_ok; msimp; rewrite RU; reflexivity|apply reaches_refl]. }
  destruct oe as [x|]; bools; mstep; [|now apply RET].
  apply (sim_operand x [_]); [assumption..|repeat constructor|]. intros v s1 tk1 [_ G1]. now apply RET.
Qed.

Lemma sim_items e items (mk : list value -> value) :
  (forall f, exec p f SNot e = XOk (fold_left (fun acc it => push_todo acc SNot it) items (push_todo f SDone e)) []) ->
  (forall f, exec p f SDone e = match pop_n (length items) (vals f) with
                                | None => XPanic
                                | Some (l, rest) => XOk (push_val_if (eused e) (set_vals f rest) (mk l)) []
                                end) ->
  entry_pops SDone e = false -> (forall vl, vsg vl -> vg (mk vl)) ->
  forall s brk cnt, forallb (frag false false) items = true -> forallb wa_sub items = true ->
  env_good (scopes s) = true ->
  forall t vs u rest tk,
    sim s brk cnt (lift_args (args_of ev items s) (fun vs s1 => (Ok (mk vs), s1))) (eused e) t vs u rest
      (cfg ((SNot, e) :: t) vs (scopes s) u rest tk (printed s)).
Proof.
  intros X0 X1 P MK s brk cnt F W G t vs u rest tk.
  eapply sim_next. { apply step_ok. rewrite X0, fold_push_todo_eq. msimp. reflexivity. }
  apply (sim_operands items [_]); [assumption..|constructor; [exact P|constructor]|].
  intros vl s1 tk1 S1 V1 L1.
  eapply sim_next; [apply step_val; rewrite X1; cbn [vals]; rewrite <- L1, pop_n_app; reflexivity|].
  apply sim_here, good_ok; [exact (proj2 S1)|now apply MK].
Qed.

Lemma sim_EList m items : sim_case (EList m items).
Proof.
  intros s brk cnt.
  exact (sim_items (EList m items) items VList (fun _ => eq_refl) (fun _ => eq_refl) eq_refl (fun _ V => V) s brk cnt).
Qed.

Lemma sim_ETuple m items : sim_case (ETuple m items).
Proof.
  intros s brk cnt.
  exact (sim_items (ETuple m items) items VTuple (fun _ => eq_refl) (fun _ => eq_refl) eq_refl (fun _ V => V) s brk cnt).
Qed.

Lemma seq_sim body : forall s brk cnt ub,
  frag_block brk cnt body = true -> wa_block ub body = true -> env_good (scopes s) = true ->
  forall t vs u rest tk,
    sim s brk cnt (seq_of ev body s) ub t vs u rest
      (cfg (fresh body ++ t) (block_vals ub body vs) (scopes s) u rest tk (printed s)).
Proof.
  induction body as [|x [|y body] IH]; intros s brk cnt ub F W G t vs u rest tk.
  - now apply sim_here, good_ok.
  - cbn [frag_block forallb] in F. apply andb_prop in F as [F _]. apply wab_one in W. destruct W as [<- W].
    exact (SV _ _ _ _ F W G t vs u rest tk).
  - rewrite seq_of_cons. apply wab_cons in W. destruct W as (U & W1 & W2).
    unfold frag_block in F. cbn [forallb] in F. apply andb_prop in F. destruct F as [F1 F2].
    eapply (sim_sub x (fresh (y :: body))); [eassumption..|auto|auto| |].
    + intros c sx a _ S. destruct c; cbn [sim_ctl] in *.
      * intros t' bs' vs' lu H. apply S. rewrite break_unwind_fresh. exact H.
      * intros t' bs' H. apply S. rewrite continue_unwind_fresh. exact H.
      * intros bs' H. apply S. rewrite return_unwind_app_fresh. exact H.
      * exact S.
    + intros v sx tk1 Sx _. rewrite U.
      exact (IH _ _ _ _ F2 W2 (proj2 Sx) t vs u rest tk1).
Qed.

Lemma sim_ctl_pop c s1 es e0 t vs u rest start b0 b1 bs :
  entry_pops es e0 = true -> is_running_loop es e0 = false -> scopes s1 = b0 :: b1 :: bs ->
  sim_ctl c s1 ((es, e0) :: t) vs u rest start -> sim_ctl c (pop_scope s1) t vs u rest start.
Proof.
  intros P R E S. destruct c; cbn [sim_ctl] in *; unfold pop_scope; cbn [scopes printed].
  - intros t' bs' vs' lu H. apply S. rewrite break_unwind_skip, P, E by exact R. rewrite E in H. exact H.
  - intros t' bs' H. apply S. cbn [continue_unwind]. rewrite R, P, E. rewrite E in H. exact H.
  - intros bs' H. apply S. cbn [return_unwind]. rewrite P, E. rewrite E in H. exact H.
  - exact S.
Qed.

(* a block entered by eval_block whose owner entry (es, e0) pops the block in one step *)
Lemma block_sim extra body s brk cnt ub es e0 (pv : list value -> list value) t vs u rest tk :
  frag_block brk cnt body = true -> wa_block ub body = true ->
  env_good (scopes s) = true -> block_good extra = true ->
  entry_pops es e0 = true -> is_running_loop es e0 = false ->
  (forall vs' b0 b1 bs tk o,
     step p (cfg ((es, e0) :: t) vs' (b0 :: b1 :: bs) u rest tk o) = Next (cfg t (pv vs') (b1 :: bs) u rest (tk + 1) o)) ->
  let start := cfg (fresh body ++ (es, e0) :: t) (block_vals ub body vs) (extra :: scopes s) u rest tk (printed s) in
  good brk cnt s (block_in_of ev extra body s) /\
  (scopes s <> [] ->
   match block_in_of ev extra body s with
   | (Ok v, s') => exists tk', reaches p start (cfg t (pv (if ub then v :: vs else vs)) (scopes s') u rest tk' (printed s'))
   | (Ctl c, s') => sim_ctl c s' t vs u rest start
   | _ => True
   end).
Proof.
  unfold block_in_of. intros F W G GX P R HS.
  pose proof (env_good_cons _ _ GX G : env_good (scopes (push_scope extra s)) = true) as G1.
  destruct (seq_sim body _ _ _ _ F W G1 ((es, e0) :: t) vs u rest tk) as [Gb Sb].
  specialize (Sb ltac:(discriminate)).
  destruct (seq_of ev body (push_scope extra s)) as [r s1]. cbn zeta.
  split; [exact (good_pop _ _ _ _ _ _ Gb)|]. intros N. destruct r as [v|c| |]; auto.
  - destruct (pushed_shape _ _ _ (proj1 Gb) N) as (b0 & b1 & bs & SH).
    destruct Sb as [tk1 R1]. exists (tk1 + 1)%N. eapply reaches_trans; [exact R1|].
    unfold pop_scope. cbn [scopes printed]. rewrite SH. eapply reaches_step; [apply HS|apply reaches_refl].
  - destruct c as [| |rv|k]; [| | |exact Sb];
      (destruct (pushed_shape _ _ _ (proj1 Gb) N) as (b0 & b1 & bs & SH); eapply sim_ctl_pop; eassumption).
Qed.

Lemma if_done_step m c tb el t u rest vs' b0 b1 bs tk o :
  step p (cfg ((SDone, EIf m c tb el) :: t) vs' (b0 :: b1 :: bs) u rest tk o) =
  Next (cfg t (if used m && (match el with None => true | Some _ => false end) then vunit :: vs' else vs')
            (b1 :: bs) u rest (tk + 1) o).
Proof. apply step_val with (pr := []). reflexivity. Qed.

Lemma sim_EIf m c tb el : sim_case (EIf m c tb el).
Proof.
  intros s brk cnt F W G t vs u rest tk. cbn [eval_step]. cbn [frag wa] in F, W.
  apply andb_prop in F as [F Fe]. apply andb_prop in F as [Fc Ft].
  apply andb_prop in W as [W We]. apply andb_prop in W as [Wc Wt]. apply andb_prop in Wc as [Uc Wc].
  mstep.
  apply (sim_operand c [_]); [assumption..|repeat constructor|]. intros cv s1 tk1 [_ G1] V1.
  destruct (as_bool cv) as [[|]|] eqn:AB.
  - eapply sim_next. { apply step_ok. msimp. rewrite AB, eval_block_cfg. reflexivity. }
    destruct (block_sim [] tb s1 _ _ _ SDone (EIf m c tb el) _ t vs u rest (tk1 + 1)%N Ft Wt G1 eq_refl
                eq_refl eq_refl (if_done_step m c tb el t u rest)) as [GB BS].
    destruct (block_in_of ev [] tb s1) as [[v|k| |] s2]; [|exact (conj GB BS)..].
    split; [split; [exact (proj1 GB)|destruct el; [exact (proj2 GB)|reflexivity]]|].
    intros N1. destruct (BS N1) as [tk2 R2]. exists tk2.
    unfold eused, emeta. destruct el, (used m); exact R2.
  - destruct el as [eb|].
    + eapply sim_next. { apply step_ok. msimp. rewrite AB, eval_block_cfg. reflexivity. }
      destruct (block_sim [] eb s1 _ _ _ SDone (EIf m c tb (Some eb)) _ t vs u rest (tk1 + 1)%N Fe We G1 eq_refl
                  eq_refl eq_refl (if_done_step m c tb (Some eb) t u rest)) as [GB BS].
      split; [exact GB|]. intros N1. specialize (BS N1).
      destruct (block_in_of ev [] eb s1) as [[v|k| |] s2]; auto.
      destruct BS as [tk2 R2]. exists tk2. unfold eused, emeta. destruct (used m); exact R2.
    + split; [now apply good_ok|]. intros N1. destruct (scopes s1) as [|b1 bs] eqn:SH; [contradiction|].
      exists (tk1 + 1 + 1)%N. rewrite SH. eapply reaches_step. { apply step_ok. msimp. rewrite AB. reflexivity. }
      eapply reaches_step; [apply if_done_step|].
      unfold eused, emeta. destruct (used m); apply reaches_refl.
  - eapply sim_exn. msimp. rewrite AB. reflexivity.
Qed.

Lemma step_ret v vs' bs um t vs bs2 u rest tk o :
  step p (cfg [] (v :: vs') bs um (mkFrame t vs bs2 [] u :: rest) tk o) =
  Next (cfg t (if um then v :: vs else vs) bs2 u rest tk o).
Proof. destruct um; reflexivity. Qed.

Lemma call_sim s2 vl cenv params body um :
  Nat.eqb (length params) (length vl) = true ->
  body_ok body = true -> env_good cenv = true -> vsg vl -> env_good (scopes s2) = true ->
  forall t vs u rest tk,
  sim s2 false false (call_of ev s2 vl cenv params body) um t vs u rest
    (cfg (fresh body) [vunit] (param_block params vl :: cenv) um (mkFrame t vs (scopes s2) [] u :: rest) tk (printed s2)).
Proof.
  unfold call_of, body_ok. intros LE B C V G t vs u rest tk. rewrite LE.
  apply andb_prop in B. destruct B as [B1 B2]. rewrite param_block_eq.
  set (s0 := mkSt (bind_params params vl [] :: cenv) (printed s2)).
  set (caller := mkFrame t vs (scopes s2) [] u :: rest).
  set (start := cfg _ _ _ _ _ _ _).
  assert (G0 : env_good (scopes s0) = true) by (apply env_good_cons; [now apply bind_params_good|exact C]).
  assert (SB : exists vs0, sim s0 false false (seq_of ev body s0) true [] vs0 um caller start).
  { pose proof (fun vs0 => seq_sim body s0 _ _ _ B1 B2 G0 [] vs0 um caller tk) as X.
    rewrite app_nil_r in X. destruct body; [exists []|exists [vunit]]; apply X. }
  destruct SB as [vs0 [Gb SB]]. specialize (SB ltac:(discriminate)).
  assert (FIN : forall v s3, vg v -> (exists tk1 vs', reaches p start (cfg [] (v :: vs') (scopes s3) um caller tk1 (printed s3))) ->
            sim s2 false false (Ok v, mkSt (scopes s2) (printed s3)) um t vs u rest start).
  { intros v s3 V3 (tk1 & vs' & R1). split; [exact (conj (conj eq_refl G) V3)|]. intros _.
    exists tk1. eapply reaches_trans; [exact R1|].
    eapply reaches_step; [apply step_ret|apply reaches_refl]. }
  destruct (seq_of ev body s0) as [[v|[| |v|k]| |] s3]; [| | | | |now split..].
  - apply FIN; [exact (proj2 Gb)|]. destruct SB as [tk1 R1]. eauto.
  - now split.
  - now split.
  - apply FIN; [exact (proj2 Gb)|]. destruct (SB _ eq_refl) as (tk1 & vs' & R1). eauto.
  - split; [exact I|intros _; exact SB].
Qed.

(* eval_call's arity errors differ only in the position they blame *)
Lemma if_exn (b : bool) x y : (if b then exn x else exn y) = exn (if b then x else y).
Proof. destruct b; reflexivity. Qed.

Lemma apply_sim m fe args s2 fv vl :
  vgood fv = true -> vsg vl -> length vl = length args -> env_good (scopes s2) = true ->
  forall t vs u rest tk,
  sim s2 false false (apply_of p ev s2 fv vl) (used m) t vs u rest
    (cfg ((SDone, ECall m fe args) :: t) (vl ++ fv :: vs) (scopes s2) u rest tk (printed s2)).
Proof.
  intros VF V L G t vs u rest tk.
  (* what the step computes, once the arguments and the callee have been popped *)
  pose proof (eq_refl : exec p (mkFrame t (vl ++ fv :: vs) (scopes s2) [] u) SDone (ECall m fe args) = eval_call p _ m args) as EC.
  unfold eval_call in EC. cbn [vals] in EC. rewrite <- L, pop_n_app in EC.
  unfold set_vals in EC. cbn [todo vals blocks nextb uses] in EC.
  unfold apply_of.
  destruct fv as [z|x|ty idx name pl|l|l|cenv params body|name shown|ty idx name|bi];
    try (eapply sim_exn; exact EC).
  - (* closure *)
    cbn [vgood] in VF. apply andb_prop in VF. destruct VF as [C B].
    destruct (Nat.eqb (length params) (length vl)) eqn:LE.
    + eapply sim_next; [rewrite step_cfg, EC; reflexivity|]. now apply call_sim.
    + unfold call_of. rewrite LE. eapply sim_exn; exact EC.
  - (* named function *)
    destruct (assoc name (funs p)) as [fd|] eqn:A; [|now split].
    assert (B : body_ok (fbody fd) = true).
    { unfold prog_good in PG. apply andb_prop in PG. destruct PG as [_ PF].
      apply assoc_In in A. exact (forallb_In _ _ _ PF A). }
    destruct (Nat.eqb (length (fparams fd)) (length vl)) eqn:LE.
    + eapply sim_next; [rewrite step_cfg, EC; reflexivity|]. now apply call_sim.
    + unfold call_of. rewrite LE, if_exn in *. eapply sim_exn; exact EC.
  - (* constructor *)
    destruct vl as [|a [|a2 vl]]; cbn [length Nat.eqb] in EC.
    + rewrite if_exn in EC. eapply sim_exn; exact EC.
    + eapply sim_next; [apply step_val; exact EC|]. apply sim_here, good_ok; [exact G|].
      unfold vsg in V. cbn [forallb] in V. bools. assumption.
    + rewrite if_exn in EC. eapply sim_exn; exact EC.
  - (* builtin *)
    destruct vl as [|a [|a2 vl]]; cbn [length Nat.eqb] in EC.
    + rewrite if_exn in EC. eapply sim_exn; exact EC.
    + destruct bi;
        [rewrite match_str; destruct (str_of a); [|eapply sim_exn; exact EC]..|];
        (eapply sim_next; [apply step_val; exact EC|];
         split; [exact (conj (conj eq_refl G) eq_refl)|intros _; eexists; apply reaches_refl]).
    + rewrite if_exn in EC. eapply sim_exn; exact EC.
Qed.

Lemma sim_ECall m fe args : sim_case (ECall m fe args).
Proof.
  intros s brk cnt F W G t vs u rest tk. cbn [eval_step]. cbn [frag wa] in F, W. bools.
  mstep.
  apply (sim_operand fe [_]); [assumption..|repeat constructor|]. intros fv s1 tk1 [_ G1] V1.
  eapply sim_next. { apply step_ok. cbn [exec]. rewrite fold_push_todo_eq. msimp. reflexivity. }
  apply (sim_operands args [_]); [assumption..|repeat constructor|].
  intros vl s2 tk2 [_ G2] V2 L2. apply sim_weaken. now apply apply_sim.
Qed.

(* The body of a running loop e, whose entry below the body is (SPart BDoneRun, e)
   and which keeps lvs on the value stack meanwhile.  What e is enters through
   HB (where `break` lands and how the loop is left from there), STEP (the step
   after a completed iteration) and NEXT (what follows it); `continue`, `return`
   and errors are the same for every loop. *)
Lemma loop_sim e lvs um extra body s k t2 vs2 t vs u rest tk :
  frag_block true true body = true -> wa_block false body = true ->
  env_good (scopes s) = true -> block_good extra = true ->
  is_running_loop (SPart BDoneRun) e = true -> entry_pops (SPart BDoneRun) e = true ->
  (forall b0 b1 bs, exists t1 bs1,
     break_unwind ((SPart BDoneRun, e) :: t) (b0 :: b1 :: bs) (lvs ++ vs) = Some (t1, bs1, vs, Some um) /\
     forall vs' tk o, step p (cfg t1 vs' bs1 u rest tk o) = Next (cfg t vs' (b1 :: bs) u rest (tk + 1) o)) ->
  (forall b0 b1 bs tk o, step p (cfg ((SPart BDoneRun, e) :: t) (lvs ++ vs) (b0 :: b1 :: bs) u rest tk o) =
     Next (cfg t2 vs2 (b1 :: bs) u rest (tk + 1) o)) ->
  (forall s2 tk2, st_ok s s2 ->
     sim s2 false false (k s2) um t vs u rest (cfg t2 vs2 (scopes s2) u rest tk2 (printed s2))) ->
  sim s false false (loop_next (block_in_of ev extra body s) k) um t vs u rest
    (cfg (fresh body ++ (SPart BDoneRun, e) :: t) (lvs ++ vs) (extra :: scopes s) u rest tk (printed s)).
Proof.
  unfold block_in_of. intros F W G GX RL EP HB STEP NEXT. set (start := cfg _ _ _ _ _ _ _).
  pose proof (env_good_cons _ _ GX G : env_good (scopes (push_scope extra s)) = true) as G1.
  destruct (seq_sim body _ _ _ _ F W G1 ((SPart BDoneRun, e) :: t) (lvs ++ vs) u rest tk) as [Gb Sb].
  specialize (Sb ltac:(discriminate)). rewrite block_vals_unused in Sb.
  change (scopes (push_scope extra s)) with (extra :: scopes s) in Sb.
  change (printed (push_scope extra s)) with (printed s) in Sb.
  destruct (seq_of ev body (push_scope extra s)) as [rb s1]. apply good_pop in Gb as Gp.
  split; [exact (good_loop_next _ _ _ Gp (fun s2 S2 => proj1 (NEXT s2 tk S2)))|]. intros N.
  assert (AGAIN : st_ok (push_scope extra s) s1 -> forall tk1,
            reaches p start (cfg ((SPart BDoneRun, e) :: t) (lvs ++ vs) (scopes s1) u rest tk1 (printed s1)) ->
            lands (k (pop_scope s1)) um t vs u rest start).
  { intros S1 tk1 R1. destruct (pushed_shape _ _ _ S1 N) as (b0 & b1 & bs & SH).
    pose proof (push_pop_ok _ _ _ S1) as S2. eapply lands_reach; [exact R1|]. rewrite SH.
    eapply lands_reach; [eapply reaches_step; [apply STEP|apply reaches_refl]|].
    replace (b1 :: bs) with (scopes (pop_scope s1)) by (unfold pop_scope; cbn [scopes]; rewrite SH; reflexivity).
    exact (proj2 (NEXT _ _ S2) (st_ok_nonempty _ _ S2 N)). }
  destruct rb as [v|[| |v|k0]| |]; cbn [loop_next]; try exact Sb.
  - destruct Sb as [tk1 R1]. exact (AGAIN (proj1 Gb) tk1 R1).
  - destruct (pushed_shape _ _ _ (proj1 Gb) N) as (b0 & b1 & bs & SH).
    cbn [lands sim_ctl] in Sb. rewrite SH in Sb.
    destruct (HB b0 b1 bs) as (t1 & bs1 & BU & ST). destruct (Sb _ _ _ _ BU) as [tk2 R2].
    exists (tk2 + 1)%N. eapply reaches_trans; [exact R2|]. unfold pop_scope. cbn [scopes printed]. rewrite SH.
    eapply reaches_step; [apply ST|apply reaches_refl].
  - assert (CU : continue_unwind ((SPart BDoneRun, e) :: t) (scopes s1) = Some ((SPart BDoneRun, e) :: t, scopes s1))
      by (cbn [continue_unwind]; rewrite RL; reflexivity).
    destruct (Sb _ _ CU) as [tk1 R1]. exact (AGAIN (proj1 Gb) tk1 R1).
  - destruct (pushed_shape _ _ _ (proj1 Gb) N) as (b0 & b1 & bs & SH).
    intros bs' RU. apply Sb. cbn [return_unwind]. rewrite EP, SH.
    unfold pop_scope in RU. cbn [scopes] in RU. rewrite SH in RU. exact RU.
Qed.

Lemma while_entered : sim_while_at (eval_step p ev).
Proof.
  intros s m c body brk cnt F0 W0 G t vs u rest tk. pose proof F0 as F. pose proof W0 as W.
  cbn [eval_step]. cbn [frag wa] in F, W. bools.
  apply (sim_operand c [_]); [assumption..|repeat constructor|]. intros cv s1 tk1 [_ G1] V1.
  destruct (as_bool cv) as [[|]|] eqn:AB.
  - eapply sim_next. { apply step_ok. msimp. rewrite AB, eval_block_cfg, block_vals_unused. reflexivity. }
    apply sim_weaken.
    apply (loop_sim (EWhile m c body) [] (used m) []) with (t2 := (SNot, c) :: (SPart BWill, EWhile m c body) :: t) (vs2 := vs);
      try assumption; try reflexivity.
    + intros b0 b1 bs. eexists _, _. split; [reflexivity|]. intros vs' tk0 o. apply step_ok with (pr := []). reflexivity.
    + intros s2 tk2 S2. exact (SW _ _ _ _ false false F0 W0 (proj2 S2) t vs u rest tk2).
  - eapply sim_next; [apply step_val; msimp; rewrite AB; reflexivity|].
    mstep. now apply sim_here, good_ok.
  - eapply sim_exn. msimp. rewrite AB. reflexivity.
Qed.

Lemma sim_EWhile m c body : sim_case (EWhile m c body).
Proof. intros s brk cnt F W G t vs u rest tk. mstep. now apply while_entered. Qed.

Lemma for_iter m x it body all : forall items k s, skipn k all = items ->
  frag_block true true body = true -> wa_block false body = true ->
  env_good (scopes s) = true -> forallb vgood items = true ->
  forall t vs u rest tk,
    sim s false false (iter_of ev x body items s) (used m) t vs u rest
      (cfg ((SPart BWill, EFor m x it body) :: t) (VList all :: VInt (Z.of_nat k) :: vs) (scopes s) u rest tk (printed s)).
Proof.
  induction items as [|v items IH]; intros k s SK Fb Wb G V t vs u rest tk.
  - apply nth_error_skipn_nil in SK. split; [now apply good_ok|]. intros N.
    destruct (scopes s) as [|b1 bs] eqn:SH; [contradiction|]. eexists.
    eapply reaches_step. { apply step_val. msimp. rewrite Nat2Z.id, SK. reflexivity. }
    eapply reaches_step; [apply step_ok; msimp; reflexivity|]. rewrite SH. apply reaches_refl.
  - rewrite iter_of_cons. apply nth_error_skipn_cons in SK. destruct SK as [NE SK].
    cbn [forallb] in V. apply andb_prop in V as [V1 V2].
    eapply sim_next.
    { apply step_ok. msimp. rewrite Nat2Z.id, NE, eval_block_cfg, block_vals_unused, add_all_binder. reflexivity. }
    apply (loop_sim (EFor m x it body) [VList all; VInt (Z.of_nat k + 1)] (used m))
      with (t2 := (SPart BWill, EFor m x it body) :: t) (vs2 := VList all :: VInt (Z.of_nat k + 1) :: vs);
      try assumption; try reflexivity.
    + now apply binder_good.
    + intros b0 b1 bs. eexists _, _. split; [reflexivity|]. intros vs' tk0 o. apply step_ok with (pr := []). reflexivity.
    + intros s2 tk2 S2. replace (Z.of_nat k + 1) with (Z.of_nat (S k)) by lia.
      exact (IH _ _ SK Fb Wb (proj2 S2) V2 t vs u rest tk2).
Qed.

Lemma sim_EFor m x it body : sim_case (EFor m x it body).
Proof.
  intros s brk cnt F W G t vs u rest tk. cbn [eval_step]. cbn [frag wa] in F, W. bools.
  mstep.
  apply (sim_operand it [_]); [assumption..|repeat constructor|]. intros iv s1 tk1 [_ G1] V1.
  destruct iv as [ | | |items| | | | | ];
    try (eapply sim_exn; msimp; reflexivity).
  change (VInt 0) with (VInt (Z.of_nat 0)). apply sim_weaken.
  apply (for_iter m x it body items items 0%nat); try assumption; reflexivity.
Qed.

Lemma match_cases_cons f u sp ty idx pl pat ppos binder body cs :
  match_cases p f u sp ty idx pl ((pat, ppos, binder, body) :: cs) =
  if N.eqb pat underscore then XOk (eval_block f u body) [] else
  match get_var p f pat with
  | None => exn ppos
  | Some pv =>
      match tag_of pv with
      | None => exn ppos
      | Some (t, i) =>
          if N.eqb ty t && N.eqb idx i then
            match pl, binder with
            | Some v, Some x => XOk (eval_block (set_nextb f (if N.eqb x underscore then [] else [(x, v)])) u body) []
            | None, None => XOk (eval_block (set_nextb f []) u body) []
            | _, _ => match_cases p f u sp ty idx pl cs
            end
          else match_cases p f u sp ty idx pl cs
      end
  end.
Proof.
  cbn [match_cases]. destruct (N.eqb pat underscore); [reflexivity|].
  destruct (get_var p f pat) as [pv|]; [|reflexivity]. destruct pv; reflexivity.
Qed.

Lemma match_agree s1 ty idx payload um spos t vs u brk cnt : forall cases,
  forallb (fun c => forallb (frag brk cnt) (snd c)) cases = true ->
  forallb (fun c => wa_block_with wa um (snd c)) cases = true ->
  match payload with Some pl => vgood pl = true | None => True end ->
  (exists extra body,
     match_cases p (mkFrame t vs (scopes s1) [] u) um spos ty idx payload cases =
       XOk (eval_block (mkFrame t vs (scopes s1) extra u) um body) [] /\
     add_all ([] :: scopes s1) extra = extra :: scopes s1 /\
     pick_of p ev s1 ty idx payload cases = block_in_of ev extra body s1 /\ block_good extra = true /\
     frag_block brk cnt body = true /\ wa_block um body = true) \/
  (exists pos k, match_cases p (mkFrame t vs (scopes s1) [] u) um spos ty idx payload cases = exn pos /\
     pick_of p ev s1 ty idx payload cases = (Ctl (CErr k), s1)).
Proof.
  induction cases as [|[[[pat ppos] binder] body] cases IH]; intros F W P.
  - right. cbn [match_cases pick_of]. eauto.
  - cbn [pick_of]. fold (pick_of p ev s1 ty idx payload). rewrite match_cases_cons, get_var_cfg.
    cbn [forallb snd] in F, W. apply andb_prop in F. destruct F as [F1 F2]. apply andb_prop in W. destruct W as [W1 W2].
    specialize (IH F2 W2 P).
    destruct (N.eqb pat underscore). { left. exists [], body. repeat split; auto. }
    destruct (lookup p s1 pat) as [pv|]; [|right; eauto].
    rewrite match_tag. destruct (tag_of pv) as [[t0 i0]|]; [|right; eauto].
    destruct (N.eqb ty t0 && N.eqb idx i0); [|exact IH].
    destruct payload as [pl|], binder as [x|]; try exact IH; left.
    + exists (if N.eqb x underscore then [] else [(x, pl)]), body.
      repeat split; auto using add_all_binder, binder_good.
    + exists [], body. repeat split; auto.
Qed.

Lemma sim_EMatch m sc cases : sim_case (EMatch m sc cases).
Proof.
  intros s brk cnt F W G t vs u rest tk. cbn [eval_step]. cbn [frag wa] in F, W.
  apply andb_prop in F as [Fs Fc]. apply andb_prop in W as [Ws Wc]. apply andb_prop in Ws as [Us Ws].
  mstep.
  apply (sim_operand sc [_]); [assumption..|repeat constructor|]. intros sv s1 tk1 [_ G1] V1.
  destruct sv as [ | |ty idx nm payload| | | | | | ];
    try (eapply sim_exn; msimp; reflexivity).
  assert (P : match payload with Some pl => vgood pl = true | None => True end).
  { unfold vg in V1. cbn [vgood] in V1. destruct payload; [assumption|exact I]. }
  destruct (match_agree s1 ty idx payload (used m) (epos sc) ((SDone, EMatch m sc cases) :: t) vs u brk cnt cases Fc Wc P)
    as [(extra & body & MC & AA & -> & GX & Fb & Wb)|(pos & k & MC & ->)].
  - eapply sim_next. { apply step_ok. msimp. rewrite MC, eval_block_cfg, AA. reflexivity. }
    exact (block_sim extra body s1 _ _ _ SDone (EMatch m sc cases) (fun x => x) t vs u rest (tk1 + 1)%N
             Fb Wb G1 GX eq_refl eq_refl (fun _ _ _ _ _ _ => eq_refl)).
  - eapply sim_exn. msimp. exact MC.
Qed.

Theorem sim_step : sim_expr_at (eval_step p ev) /\ sim_while_at (eval_step p ev).
Proof.
  split.
  - intros s e. destruct e.
    + apply sim_EInt. + apply sim_EStr. + apply sim_EVar. + apply sim_EBin. + apply sim_ELet.
    + apply sim_EAssign. + apply sim_EUpd. + apply sim_EIf. + apply sim_EWhile. + apply sim_EFor.
    + apply sim_EBreak. + apply sim_EContinue. + apply sim_EReturn. + apply sim_EList. + apply sim_ETuple.
    + apply sim_ECall. + apply sim_EFun. + apply sim_EParen. + apply sim_EMatch.
    + intros brk cnt F. discriminate.
  - exact while_entered.
Qed.

End Step.
End Sim.

Theorem sim_all p : prog_good p = true ->
  forall fuel, sim_expr_at p (eval p fuel) /\ sim_while_at p (eval p fuel).
Proof.
  intros PG. induction fuel as [|f [IH1 IH2]].
  - split; repeat intro; now split.
  - rewrite eval_unfold. exact (sim_step p PG (eval p f) IH1 IH2).
Qed.

Theorem eval_good p : prog_good p = true -> forall fuel, good_at (eval p fuel).
Proof.
  intros PG fuel s e brk cnt F W G. exact (proj1 (proj1 (sim_all p PG fuel) s e brk cnt F W G [] [] false [] 0%N)).
Qed.

Lemma state_is_cfg st f rest t e :
  stack st = f :: rest -> todo f = (SNot, e) :: t -> nextb f = [] ->
  interrupted st = false -> tick_limit st = None -> stack_limit st = None ->
  st = cfg ((SNot, e) :: t) (vals f) (blocks f) (uses f) rest (ticks st) (out st).
Proof.
  destruct st as [stk tk o i tl sl], f as [td vs bs nb u]. cbn. intros. subst. reflexivity.
Qed.

(* The machine simulates the reference semantics, expression by expression:
   normal completion. *)
Theorem exec_refines_eval_partial : forall p fuel s e v s' brk cnt,
  prog_good p = true -> eval p fuel s e = (Ok v, s') ->
  frag brk cnt e = true -> wa e = true -> env_good (scopes s) = true -> scopes s <> [] ->
  forall st f rest t,
    stack st = f :: rest -> todo f = (SNot, e) :: t -> blocks f = scopes s -> nextb f = [] ->
    out st = printed s -> interrupted st = false -> tick_limit st = None -> stack_limit st = None ->
  exists n st',
    run_steps p n st = Some st' /\
    stack st' = mkFrame t (if eused e then v :: vals f else vals f) (scopes s') [] (uses f) :: rest /\
    out st' = printed s' /\ interrupted st' = false /\ tick_limit st' = None /\ stack_limit st' = None.
Proof.
  intros p fuel s e v s' brk cnt PG H F W G N st f rest t ST TD BL NB OU IN TL SL.
  rewrite (state_is_cfg _ _ _ _ _ ST TD NB IN TL SL), BL, OU.
  pose proof (proj2 (proj1 (sim_all p PG fuel) _ _ _ _ F W G t (vals f) (uses f) rest (ticks st)) N) as S.
  rewrite H in S. destruct S as [tk' [n R]].
  exists n, (cfg t (if eused e then v :: vals f else vals f) (scopes s') (uses f) rest tk' (printed s')).
  split; [exact R|]. cbn. auto 10.
Qed.

(* The same for runtime errors: the machine fails with an exception, after the same output. *)
Theorem exec_refines_eval_error_partial : forall p fuel s e k s' brk cnt,
  prog_good p = true -> eval p fuel s e = (Ctl (CErr k), s') ->
  frag brk cnt e = true -> wa e = true -> env_good (scopes s) = true -> scopes s <> [] ->
  forall st f rest t,
    stack st = f :: rest -> todo f = (SNot, e) :: t -> blocks f = scopes s -> nextb f = [] ->
    out st = printed s -> interrupted st = false -> tick_limit st = None -> stack_limit st = None ->
  exists n st1 er st2,
    run_steps p n st = Some st1 /\ step p st1 = Failed er st2 /\ ekind_of er = KException /\ out st2 = printed s'.
Proof.
  intros p fuel s e k s' brk cnt PG H F W G N st f rest t ST TD BL NB OU IN TL SL.
  rewrite (state_is_cfg _ _ _ _ _ ST TD NB IN TL SL), BL, OU.
  pose proof (proj2 (proj1 (sim_all p PG fuel) _ _ _ _ F W G t (vals f) (uses f) rest (ticks st)) N) as S.
  rewrite H in S. destruct S as (st1 & er & st2 & [n R] & FS & K & O).
  exists n, st1, er, st2. auto.
Qed.

Lemma toplevel_good p (PG : prog_good p = true) fuel : forall exprs s,
  forallb (frag false false) exprs = true -> forallb wa_sub exprs = true ->
  env_good (scopes s) = true -> good false false s (run_toplevel p fuel s exprs).
Proof.
  pose proof (eval_good p PG fuel) as EV.
  induction exprs as [|x exprs IH]; intros s F W G.
  - now apply good_ok.
  - cbn [forallb] in F, W. apply andb_prop in F as [Fx Fl]. apply andb_prop in W as [Wx Wl].
    apply andb_prop in Wx as [_ Wx]. destruct exprs as [|y exprs]; [now apply EV|].
    rewrite run_toplevel_cons. pose proof (EV _ _ _ _ Fx Wx G) as Gx.
    destruct (eval p fuel s x) as [[v|c| |] s1]; cbn [rbind]; try exact Gx.
    exact (good_trans _ _ _ _ _ (proj1 Gx) (IH _ Fl Wl (proj2 (proj1 Gx)))).
Qed.

(* Every toplevel expression is used (wa_sub): its value stays on the value
   stack of the toplevel frame, hence the vs'. *)
Lemma toplevel_sim p (PG : prog_good p = true) fuel : forall exprs s vs,
  exprs <> [] -> forallb (frag false false) exprs = true -> forallb wa_sub exprs = true ->
  env_good (scopes s) = true -> scopes s <> [] ->
  forall tk,
  let start := cfg (fresh exprs) vs (scopes s) true [] tk (printed s) in
  match run_toplevel p fuel s exprs with
  | (Ok v, s') | (Ctl (CReturn v), s') =>
      exists tk' vs', reaches p start (cfg [] (v :: vs') (scopes s') true [] tk' (printed s'))
  | (Ctl (CErr _), s') => fails p start (printed s')
  | _ => True
  end.
Proof.
  destruct (sim_all p PG fuel) as [SE _].
  induction exprs as [|x exprs IH]; intros s vs NE F W G N tk; [contradiction|].
  cbn [forallb] in F, W. apply andb_prop in F as [Fx Fl]. apply andb_prop in W as [Wx Wl].
  apply andb_prop in Wx as [Ux Wx]. destruct exprs as [|y exprs].
  - pose proof (proj2 (SE _ _ _ _ Fx Wx G [] vs true [] tk) N) as S1. rewrite Ux in S1. cbn [run_toplevel].
    destruct (eval p fuel s x) as [[v|[| |v|k]| |] s']; cbn zeta; auto.
    + destruct S1 as [tk1 R1]. eauto.
  - rewrite run_toplevel_cons.
    destruct (SE _ _ _ _ Fx Wx G (fresh (y :: exprs)) vs true [] tk) as [Gx S1]. specialize (S1 N). rewrite Ux in S1.
    destruct (eval p fuel s x) as [[v|c| |] s1]; cbn [rbind]; try exact I.
    + destruct Gx as [St1 _]. destruct S1 as [tk1 R1].
      specialize (IH _ (v :: vs) ltac:(discriminate) Fl Wl (proj2 St1) (st_ok_nonempty _ _ St1 N) tk1).
      destruct (run_toplevel p fuel s1 (y :: exprs)) as [[w|[| |w|k]| |] s']; cbn zeta in *; auto;
        try (eapply fails_reach; eassumption);
        (destruct IH as (tk2 & vs' & R2); exists tk2, vs'; eapply reaches_trans; eassumption).
    + destruct c; cbn zeta; auto. destruct (S1 _ (return_unwind_fresh _ _)) as (tk1 & vs' & R1). eauto.
Qed.

Lemma step_done p v vs' bs tk o :
  step p (cfg [] (v :: vs') bs true [] tk o) = Done v (mkState [mkFrame [] vs' bs [] true] tk o false None None).
Proof. reflexivity. Qed.

(* A whole program: `garden run` on the machine ends as the reference says,
   with the same value (or a runtime error) and the same printed output. *)
Theorem machine_refines_ref_partial : forall p fuel exprs r s',
  prog_good p = true ->
  forallb in_fragment exprs = true -> well_annotated_toplevel exprs = true ->
  ref_run p fuel exprs = (r, s') ->
  match r with
  | Ok v => exists n st', run p n (init_state exprs None None) = RDone v st' /\ out st' = printed s'
  | Ctl (CErr _) => exists n er st', run p n (init_state exprs None None) = RFailed er st' /\
                                     ekind_of er = KException /\ out st' = printed s'
  | _ => True
  end.
Proof.
  intros p fuel exprs r s' PG F W H. unfold ref_run in H.
  change (init_state exprs None None) with (cfg (fresh exprs) [vunit] [[]] true [] 0%N []).
  destruct exprs as [|x exprs].
  - injection H as <- <-. exists 1%nat. eexists. split; reflexivity.
  - pose proof (toplevel_sim p PG fuel (x :: exprs) (mkSt [[]] []) [vunit] ltac:(discriminate) F W eq_refl ltac:(discriminate) 0%N) as T.
    cbn [scopes printed] in T. set (start := cfg _ _ _ _ _ _ _) in *.
    (* the machine has reached the end of the toplevel frame with v on top: one more step answers v *)
    assert (OKC : forall v s0, (exists tk' vs', reaches p start (cfg [] (v :: vs') (scopes s0) true [] tk' (printed s0))) ->
              exists n st', run p n start = RDone v st' /\ out st' = printed s0).
    { intros v s0 (tk' & vs' & [n R]). exists (n + 1)%nat. eexists. rewrite (run_steps_run _ _ _ _ 1 R). split; reflexivity. }
    destruct (run_toplevel p fuel _ (x :: exprs)) as [[v|[| |v|k]| |] s0]; injection H as <- <-; cbn zeta in T; auto.
    destruct T as (st1 & er & st2 & [n R] & FS & K & O).
    exists (n + 1)%nat, er, st2. rewrite (run_steps_run _ _ _ _ 1 R). cbn [run]. rewrite FS. auto.
Qed.

Lemma run_stable p n : forall a r, run p n a = r -> (forall s, r <> ROutOfFuel s) ->
  forall m, run p m a = r \/ exists s', run p m a = ROutOfFuel s'.
Proof.
  induction n as [|n IH]; intros a r H NF m; cbn [run] in H; [now elim (NF a)|].
  destruct m as [|m]; [right; eexists; reflexivity|]. cbn [run].
  destruct (step p a); [now apply IH|left; exact H..].
Qed.

(* Crash-freedom, for every fuel, of all programs of the fragment on which the
   reference terminates: a finished run stays finished with more fuel. *)
Theorem run_never_crashes_when_ref_terminates : forall p fuel exprs r s',
  prog_good p = true ->
  forallb in_fragment exprs = true -> well_annotated_toplevel exprs = true ->
  ref_run p fuel exprs = (r, s') ->
  (exists v, r = Ok v) \/ (exists k, r = Ctl (CErr k)) ->
  forall n, run p n (init_state exprs None None) <> RCrashed /\
            run p n (init_state exprs None None) <> RUnsupported.
Proof.
  intros p fuel exprs r s' PG F W H T n.
  pose proof (machine_refines_ref_partial p fuel exprs r s' PG F W H) as M.
  destruct T as [[v ->]|[k ->]].
  - destruct M as (m & st' & R & _).
    destruct (run_stable _ _ _ _ R ltac:(discriminate) n) as [E|[s2 E]]; rewrite E; split; discriminate.
  - destruct M as (m & er & st' & R & _).
    destruct (run_stable _ _ _ _ R ltac:(discriminate) n) as [E|[s2 E]]; rewrite E; split; discriminate.
Qed.
