(* Eval-up-to from the initial state of a program (MachineStop.v; continues
   MachineStopProps.v).  A stop after an entry: every entry that is not
   NotEvaluated belongs to an expression whose evaluation began at an earlier
   step (hist_run), so an evaluation of the target began before the stop
   (entry_stop_began).  A stop at a frame's return: the frame was opened by a
   call with the target span, and the run has stayed inside that call since
   (top_frame_opened, return_stop_is_call_completion).  A `for` loop as the
   target. *)
From Coq Require Import ZArith NArith Bool List Lia.
From Garden Require Import Base.Int64 Arith gen.Tables Machine MachineInv MachineStop MachineStopProps.
Import ListNotations.
Open Scope nat_scope.

(* the entries of `new` that are not NotEvaluated are for e or come from such entries of `old` *)
Definition nf_sub (old new : cont) (e : expr) : Prop :=
  forall es' e', In (es', e') new -> es' <> SNot ->
    e' = e \/ exists es'', In (es'', e') old /\ es'' <> SNot.

Lemma fresh_or_not es : es = SNot \/ es <> SNot.
Proof. destruct es; [now left|right; discriminate|right; discriminate]. Qed.

Lemma nf_refl old e : nf_sub old old e.
Proof. intros es' e' IN NS. right. eauto. Qed.

Lemma nf_nil old e : nf_sub old [] e.
Proof. intros es' e' []. Qed.

Lemma nf_cons_self old new e s : nf_sub old new e -> nf_sub old ((s, e) :: new) e.
Proof. intros H es' e' [E|IN] NS; [inversion E; now left|eauto]. Qed.

Lemma nf_cons_fresh old new e x : nf_sub old new e -> nf_sub old ((SNot, x) :: new) e.
Proof. intros H es' e' [E|IN] NS; [inversion E; congruence|eauto]. Qed.

Lemma nf_app_fresh old new e l : nf_sub old new e -> nf_sub old (map (fun x => (SNot, x)) l ++ new) e.
Proof. intros H. induction l as [|x l IH]; [exact H|]. now apply nf_cons_fresh. Qed.

Lemma nf_drop old new e x : nf_sub old new e -> nf_sub (x :: old) new e.
Proof.
  intros H es' e' IN NS. destruct (H es' e' IN NS) as [->|(es'' & I2 & N2)]; [now left|].
  right. exists es''. split; [now right|exact N2].
Qed.

Lemma nf_push_val_if old b g v e : nf_sub old (todo g) e -> nf_sub old (todo (push_val_if b g v)) e.
Proof. now rewrite push_val_if_todo. Qed.

Lemma nf_eval_block old g u body e : nf_sub old (todo g) e -> nf_sub old (todo (eval_block g u body)) e.
Proof. rewrite eval_block_todo_eq. apply nf_app_fresh. Qed.

(* takes the frame that exec returns apart, operation by operation, down to the old continuation *)
Ltac nf_done :=
  lazymatch goal with
  | |- nf_sub ?o ?o _ => apply nf_refl
  | |- nf_sub _ (todo (push_val_if _ _ _)) _ => apply nf_push_val_if; nf_done
  | |- nf_sub _ (todo (eval_block _ _ _)) _ => apply nf_eval_block; nf_done
  | |- nf_sub _ (todo (fold_left _ _ _)) _ => rewrite fold_push_todo_eq; apply nf_app_fresh; nf_done
  | |- nf_sub _ ((SNot, _) :: _) _ => apply nf_cons_fresh; nf_done
  | |- nf_sub _ ((_, _) :: _) _ => apply nf_cons_self; nf_done
  | |- nf_sub _ (todo _) _ => progress cbn [todo push_todo push_val set_vals set_blocks set_todo set_nextb]; nf_done
  | |- _ => progress cbv beta iota; nf_done
  end.

Lemma break_unwind_nf e : forall t bs vs t' bs' vs' lu,
  break_unwind t bs vs = Some (t', bs', vs', lu) -> nf_sub t t' e.
Proof.
  induction t as [|[s x] t IH]; intros bs vs t' bs' vs' lu H.
  - injection H as <- _ _ _. apply nf_refl.
  - destruct (is_running_loop s x) eqn:R.
    + pose proof (break_unwind_loop s x t bs vs R) as L. rewrite H in L. destruct L as [-> _].
      intros es' e' [E|IN] N1; right; [inversion E; subst e'; exists s|exists es'].
      * split; [now left|]. intros ->. discriminate R.
      * split; [now right|exact N1].
    + rewrite (break_unwind_skip _ _ _ _ _ R) in H.
      apply (discard_entry s x bs (fun b => break_unwind t b vs)) in H as (bs1 & H & _).
      apply nf_drop. exact (IH _ _ _ _ _ _ H).
Qed.

Lemma continue_unwind_nf e : forall t bs t' bs',
  continue_unwind t bs = Some (t', bs') -> nf_sub t t' e.
Proof.
  induction t as [|[s x] t IH]; intros bs t' bs' H; cbn [continue_unwind] in H.
  - injection H as <- _. apply nf_refl.
  - destruct (is_running_loop s x).
    + injection H as <- _. apply nf_refl.
    + apply (discard_entry s x bs (continue_unwind t)) in H as (bs1 & H & _).
      apply nf_drop. exact (IH _ _ _ H).
Qed.

(* A step of e that goes on in the same frame adds NotEvaluated entries and
   entries for e itself to the continuation, or unwinds it. *)
Lemma exec_nf p f es e :
  match exec p f es e with XOk f' _ => nf_sub (todo f) (todo f') e | _ => True end.
Proof.
  destruct e as [m z|m s|m x|m o l r|m x r|m x xp r|m u x xp r|m c th el|m c b|m x it b|m|m|m oe
                 |m items|m items|m fe args|m ps b|m i|m sc cases|m];
    cbn [exec]; unfold pop_val, pop_block.
  - nf_done.
  - nf_done.
  - destruct (get_var p f x); [nf_done|exact I].
  - destruct es; try nf_done.
    pose proof (eval_binop_cases f m o (epos l) (epos r) _ eq_refl) as B.
    destruct (eval_binop f m o (epos l) (epos r)); try exact I. destruct B as (rv & lv & vs & v & _ & ->). nf_done.
  - destruct es; try nf_done. destruct (vals f); [exact I|nf_done].
  - destruct es; try nf_done. destruct (lookup_blocks x (blocks f)); [|exact I].
    destruct (vals f); [exact I|]. destruct (set_existing x _ _); [nf_done|exact I].
  - destruct es; try nf_done. destruct (get_var p f x) as [cur|]; [|exact I]. destruct (int_of cur); [|exact I].
    destruct (vals f) as [|rv ?]; [exact I|]. destruct (int_of rv); [|exact I].
    destruct (arm_sem true (upd_arm u) z z0); try exact I. destruct (set_existing x _ _); [nf_done|exact I].
  - destruct es; [nf_done| |destruct (blocks f) as [|? [|? ?]]; try exact I; nf_done].
    cbn [vals push_todo]. destruct (vals f) as [|cv ?]; [exact I|].
    destruct (as_bool cv) as [[|]|]; [nf_done|destruct el; nf_done|exact I].
  - destruct es as [|[]|]; try nf_done; try exact I.
    + destruct (vals f) as [|cv ?]; [exact I|]. destruct (as_bool cv) as [[|]|]; [nf_done|nf_done|exact I].
    + destruct (blocks f) as [|? [|? ?]]; try exact I; nf_done.
  - destruct es as [|[]|]; try nf_done; try exact I.
    + destruct (vals f) as [|itv [|idxv ?]]; try exact I. destruct idxv; try exact I. destruct itv; try exact I.
      destruct (nth_error _ _); nf_done.
    + destruct (blocks f) as [|? [|? ?]]; try exact I; nf_done.
    + destruct (blocks f) as [|? [|? ?]]; try exact I; nf_done.
  - destruct (break_unwind (todo f) (blocks f) (vals f)) as [[[[t' ?] ?] ?]|] eqn:B; [|exact I].
    apply nf_push_val_if. exact (break_unwind_nf _ _ _ _ _ _ _ _ B).
  - destruct (continue_unwind (todo f) (blocks f)) as [[t' ?]|] eqn:C; [|exact I].
    exact (continue_unwind_nf _ _ _ _ _ C).
  - destruct es; [destruct oe; nf_done|destruct oe; nf_done|].
    destruct (return_unwind (todo f) (blocks f)); [apply nf_nil|exact I].
  - destruct es; try nf_done. destruct (pop_n (length items) (vals f)) as [[? ?]|]; [nf_done|exact I].
  - destruct es; try nf_done. destruct (pop_n (length items) (vals f)) as [[? ?]|]; [nf_done|exact I].
  - destruct es; try nf_done.
    pose proof (eval_call_cases p f m args _ eq_refl) as C.
    destruct (eval_call p f m args); try exact I. destruct C as (vs & v & ->). nf_done.
  - nf_done.
  - nf_done.
  - destruct es; [nf_done| |destruct (blocks f) as [|? [|? ?]]; try exact I; nf_done].
    cbn [vals push_todo]. destruct (vals f) as [|sv ?]; [exact I|]. destruct sv; try exact I.
    match goal with |- context [match_cases p ?g ?u ?sp ?ty ?ix ?pl cases] =>
      pose proof (match_cases_cases p u sp ty ix pl cases g _ eq_refl) as M;
      destruct (match_cases p g u sp ty ix pl cases) end; try exact I.
    destruct M as (nb & body & _ & ->). nf_done.
  - exact I.
Qed.

Definition all_fresh (t : cont) : Prop := forall es' e', In (es', e') t -> es' = SNot.

Lemma fresh_map l : all_fresh (map (fun e => (SNot, e)) l).
Proof. intros es' e' IN. apply in_map_iff in IN. destruct IN as (x & E & _). now inversion E. Qed.

Lemma init_fresh exprs tl sl : forall f, In f (stack (init_state exprs tl sl)) -> all_fresh (todo f).
Proof. intros f [<-|[]]. cbn [toplevel_frame todo]. apply fresh_map. Qed.

Lemma exec_call_shape p f es e f' callee :
  exec p f es e = XCall f' callee ->
  es = SDone /\ (exists m fe args, e = ECall m fe args /\ uses callee = used m) /\
  todo f' = todo f /\ all_fresh (todo callee).
Proof.
  intros H. apply exec_spec in H as (-> & m & fe & args & -> & E).
  apply eval_call_cases in E as (vs & bs & body & -> & ->).
  split; [reflexivity|]. split; [eauto|]. split; [reflexivity|apply fresh_map].
Qed.

Definition top_entry (s : state) : option (estate * expr) :=
  match stack s with
  | f :: _ => match todo f with x :: _ => Some x | [] => None end
  | [] => None
  end.

(* the evaluation of e began -- entry (NotEvaluated, e) on top of the current
   frame -- at a step of the run before the i-th *)
Definition began (p : prog) (s0 : state) (i : nat) (e : expr) : Prop :=
  exists m s_m, m < i /\ plain_iter p m s0 = Some s_m /\ top_entry s_m = Some (SNot, e).

Definition hist_inv (p : prog) (s0 : state) (i : nat) (s : state) : Prop :=
  forall f es e, In f (stack s) -> In (es, e) (todo f) -> es <> SNot -> began p s0 i e.

Lemma began_mono p s0 i j e : began p s0 i e -> i <= j -> began p s0 j e.
Proof. intros (m & s_m & L & P & T) LE. exists m, s_m. split; [lia|auto]. Qed.

Lemma plain_iter_snoc p : forall n s0 s s', plain_iter p n s0 = Some s -> step p s = Next s' ->
  plain_iter p (S n) s0 = Some s'.
Proof. intros n s0 s s'. apply plain_iter_last. Qed.

Lemma hist_step p s0 i s s' :
  plain_iter p i s0 = Some s -> hist_inv p s0 i s -> step p s = Next s' -> hist_inv p s0 (S i) s'.
Proof.
  intros PI HI ST.
  assert (OLD : forall g es e, In g (stack s) -> In (es, e) (todo g) -> es <> SNot -> began p s0 (S i) e).
  { intros g es e IG IE NS. eapply began_mono; [eapply (HI g); eauto|lia]. }
  unfold step in ST.
  destruct (stack s) as [|f rest] eqn:ES; [discriminate|].
  destruct (todo f) as [|[es e] t] eqn:ET.
  - destruct rest as [|caller rest']; [destruct (vals f); discriminate|].
    destruct (vals f) as [|v vs]; [discriminate|]. inversion ST; subst. cbn [stack with_stack].
    intros g es1 e1 [<-|IN] I2 NS.
    + rewrite push_val_if_todo in I2. apply (OLD caller es1 e1); auto. right. now left.
    + apply (OLD g es1 e1); auto. right. now right.
  - destruct (interrupted s); [discriminate|].
    destruct (opt_le (tick_limit s) (ticks s + 1)); [discriminate|].
    destruct (opt_lt (stack_limit s) (N.of_nat (length (f :: rest)))); [discriminate|].
    assert (SELF : began p s0 (S i) e).
    { destruct (fresh_or_not es) as [->|NS]; [|apply (OLD f es e); [now left|rewrite ET; now left|exact NS]].
      exists i, s. split; [lia|]. split; [exact PI|]. unfold top_entry. now rewrite ES, ET. }
    (* the frame the step leaves in the place of f *)
    assert (TOP : forall f', nf_sub t (todo f') e ->
              forall es1 e1, In (es1, e1) (todo f') -> es1 <> SNot -> began p s0 (S i) e1).
    { intros f' NF es1 e1 I1 N1. destruct (NF es1 e1 I1 N1) as [->|(es2 & I2 & N2)]; [exact SELF|].
      apply (OLD f es2 e1); [now left|rewrite ET; now right|exact N2]. }
    pose proof (exec_nf p (set_todo f t) es e) as EC.
    destruct (exec p (set_todo f t) es e) as [f' pr|f' callee| | |] eqn:EX; try discriminate;
      inversion ST; subst; cbn [stack with_stack].
    + intros g es1 e1 [<-|IN] I1 N1; [eapply TOP; eauto|apply (OLD g es1 e1); auto; now right].
    + destruct (exec_call_shape _ _ _ _ _ _ EX) as (_ & _ & TD & FR). cbn [todo set_todo] in TD.
      intros g es1 e1 [<-|[<-|IN]] I1 N1.
      * destruct (N1 (FR es1 e1 I1)).
      * eapply (TOP f'); [rewrite TD; apply nf_refl|exact I1|exact N1].
      * apply (OLD g es1 e1); auto. now right.
Qed.

Lemma hist_run p s0 : (forall f, In f (stack s0) -> all_fresh (todo f)) ->
  forall i s, plain_iter p i s0 = Some s -> hist_inv p s0 i s.
Proof.
  intros FR. induction i as [|i IH]; intros s PI.
  - cbn in PI. inversion PI; subst. intros f es e IF IE NS. destruct (NS (FR f IF es e IE)).
  - rewrite <- Nat.add_1_r, plain_iter_add in PI.
    destruct (plain_iter p i s0) as [s1|] eqn:P1; [|discriminate]. cbn [plain_iter] in PI.
    destruct (step p s1) as [s2| | | |] eqn:S1; try discriminate. inversion PI; subst s2.
    exact (hist_step p s0 i s1 s P1 (IH s1 eq_refl) S1).
Qed.

Definition begins_b (t : N * N) (s : state) : bool :=
  match top_entry s with
  | Some (SNot, e) => pos_eqb (epos e) t
  | _ => false
  end.

Definition begins_at (t : N * N) (p : prog) (s0 : state) (m : nat) : bool :=
  match plain_iter p m s0 with Some s => begins_b t s | None => false end.

Lemma least_true : forall k (P : nat -> bool), P k = true ->
  exists m, m <= k /\ P m = true /\ forall m', m' < m -> P m' = false.
Proof.
  induction k as [|k IH]; intros P Pk.
  - exists 0. split; [lia|]. split; [exact Pk|]. intros m' L. lia.
  - destruct (P 0) eqn:P0.
    + exists 0. split; [lia|]. split; [exact P0|]. intros m' L. lia.
    + destruct (IH (fun n => P (S n)) Pk) as (m & L & Pm & MIN). exists (S m).
      split; [lia|]. split; [exact Pm|]. intros [|m'] L'; [exact P0|apply MIN; lia].
Qed.

(* If the run from a fresh start stops after an expression (not at a call's
   return), an evaluation of an expression with the target span began at some
   earlier step; m is the FIRST step at which one begins. *)
Theorem entry_stop_began t p fuel ss0 n v ssf spre :
  (forall f, In f (stack (base ss0)) -> all_fresh (todo f)) ->
  run_stop t p fuel 0 ss0 = TStopped n v ssf ->
  iter_stop t p (n - 1) ss0 = Some spre -> top_entry (base spre) <> None ->
  exists m s_m f rest e T,
    m < n /\ plain_iter p m (base ss0) = Some s_m /\
    stack s_m = f :: rest /\ todo f = (SNot, e) :: T /\ epos e = t /\
    (forall m', m' < m -> begins_at t p (base ss0) m' = false).
Proof.
  intros FR RUN IS TE. destruct (run_stop_last _ _ _ _ _ _ _ _ RUN IS) as (j & -> & IJ & SJ). clear RUN IS.
  pose proof (iter_stop_plain _ _ _ _ _ IJ) as PJ.
  pose proof (step_stop_spec t p spre) as SI. rewrite SJ in SI. destruct SI as (s1 & _ & _ & SH).
  unfold stop_shape in SH. unfold top_entry in TE.
  destruct (stack (base spre)) as [|f rest] eqn:ST; [contradiction|].
  destruct (todo f) as [|[es e] td] eqn:TD; [congruence|]. clear TE. destruct SH as (PE & _).
  assert (K : exists k sk, k <= j /\ plain_iter p k (base ss0) = Some sk /\ top_entry sk = Some (SNot, e)).
  { destruct (fresh_or_not es) as [->|NS].
    - exists j, (base spre). split; [lia|]. split; [exact PJ|]. unfold top_entry. now rewrite ST, TD.
    - destruct (hist_run p (base ss0) FR j (base spre) PJ f es e) as (m & s_m & L & PM & TM);
        [rewrite ST; now left|rewrite TD; now left|exact NS|]. exists m, s_m. split; [lia|]. split; assumption. }
  destruct K as (k & sk & LK & PK & TK).
  assert (BK : begins_at t p (base ss0) k = true).
  { unfold begins_at, begins_b. rewrite PK, TK. now apply pos_eqb_eq. }
  destruct (least_true k (begins_at t p (base ss0)) BK) as (m & LM & BM & MIN).
  unfold begins_at in BM. destruct (plain_iter p m (base ss0)) as [s_m|] eqn:PM; [|discriminate].
  unfold begins_b, top_entry in BM. destruct (stack s_m) as [|fm restm] eqn:STM; [discriminate|].
  destruct (todo fm) as [|[esm em] Tm] eqn:TDM; [discriminate|]. destruct esm; try discriminate.
  exists m, s_m, fm, restm, em, Tm. apply pos_eqb_eq in BM. repeat split; auto. lia.
Qed.

Definition depth (ss : sstate) : nat := length (stack (base ss)).

Section Run.
Variable t : N * N.
Variable p : prog.
Variable ss0 : sstate.

Definition at_step (i : nat) (s : sstate) : Prop := iter_stop t p i ss0 = Some s.

Lemma at_step_fun i a b : at_step i a -> at_step i b -> a = b.
Proof. unfold at_step. congruence. Qed.

Lemma at_step_S i s : at_step (S i) s -> exists s1, at_step i s1 /\ step_stop t p s1 = ONext s.
Proof.
  unfold at_step. intros H. rewrite <- Nat.add_1_r, iter_stop_add in H.
  destruct (iter_stop t p i ss0) as [s1|]; [|discriminate]. exists s1. split; [reflexivity|].
  cbn [iter_stop] in H. destruct (step_stop t p s1); try discriminate. now inversion H.
Qed.

(* sj lies inside a call that left the caller's frame f' on the frames `rest` *)
Definition inside (f' : frame) (rest : list frame) (sj : sstate) : Prop :=
  exists X, stack (base sj) = X ++ f' :: rest /\ X <> [].

(* the call that created the top frame of the state si at step i, made at
   step m: the run has stayed inside it since, and the top frame is the
   callee's own *)
Inductive opened (i : nat) (si : sstate) : Prop :=
| Opened m sm fm rest e td f' callee top :
    m < i -> at_step m sm -> stack (base sm) = fm :: rest -> todo fm = (SDone, e) :: td ->
    exec p (set_todo fm td) SDone e = XCall f' callee ->
    (forall j sj, m < j <= i -> at_step j sj -> inside f' rest sj) ->
    stack (base si) = top :: f' :: rest -> callers si = epos e :: callers sm ->
    opened i si.

Lemma top_frame_opened : depth ss0 = 1 ->
  forall i si, at_step i si -> depth si = 1 \/ opened i si.
Proof.
  intros D0. induction i as [i IH] using lt_wf_ind. intros si AI.
  destruct i as [|i]; [left; inversion AI; subst; exact D0|].
  destruct (at_step_S i si AI) as (s1 & A1 & S1).
  assert (NOW : forall f' rest top, stack (base si) = top :: f' :: rest ->
            forall j sj, j = S i -> at_step j sj -> inside f' rest sj).
  { intros f' rest top ST j sj -> AJ. rewrite (at_step_fun _ _ _ AJ AI). exists [top]. split; [exact ST|discriminate]. }
  pose proof (IH i (Nat.lt_succ_diag_r i) s1 A1) as H1.
  pose proof (step_stop_spec t p s1) as K. rewrite S1 in K. destruct (proj2 K)
    as [f rest f' ST ST' CS|f rest es e td f' callee ST TD EX ST' CS|f caller rest' v ST TD ST' CS].
  - destruct H1 as [D1|[m sm fm rest1 e td f1 callee top L AM STM TDM EXM IN ST1 CS1]].
    { left. unfold depth in *. rewrite ST in D1. rewrite ST'. exact D1. }
    right. rewrite ST1 in ST. inversion ST; subst top rest. rewrite CS1 in CS.
    apply (Opened _ _ m sm fm rest1 e td f1 callee f'); auto.
    intros j sj [La Lb] AJ. destruct (Nat.eq_dec j (S i)) as [E|NE]; [exact (NOW f1 rest1 f' ST' j sj E AJ)|].
    apply (IN j sj); [lia|exact AJ].
  - right. destruct (exec_call_shape _ _ _ _ _ _ EX) as (-> & _).
    apply (Opened _ _ i s1 f rest e td f' callee callee); auto.
    intros j sj [La Lb] AJ. apply (NOW f' rest callee ST' j sj); [lia|exact AJ].
  - (* a return: the call that opened the returning frame was made at a step m1 by a state sm1;
       the frame that is on top again was created by the call that opened sm1's top frame *)
    destruct H1 as [D1|[m1 sm1 fm1 rest1 e1 td1 f1 callee1 top1 L1 AM1 STM1 TDM1 EXM1 IN1 ST1 CS1]].
    { unfold depth in D1. rewrite ST in D1. discriminate D1. }
    rewrite ST1 in ST. inversion ST; subst top1 caller rest'. rewrite CS1 in CS. cbn [tl] in CS.
    destruct (IH m1 (Nat.lt_lt_succ_r _ _ L1) sm1 AM1)
      as [D0'|[m0 sm0 fm0 rest0 e0 td0 f0 callee0 top0 L0 AM0 STM0 TDM0 EXM0 IN0 ST0 CS0]].
    { left. unfold depth in *. rewrite STM1 in D0'. rewrite ST'. exact D0'. }
    right. rewrite ST0 in STM1. inversion STM1; subst top0 rest1. rewrite CS0 in CS.
    apply (Opened _ _ m0 sm0 fm0 rest0 e0 td0 f0 callee0 (push_val_if (uses f) f1 v)); auto; [lia|].
    intros j sj [La Lb] AJ.
    destruct (Nat.eq_dec j (S i)) as [E|NE]; [exact (NOW f0 rest0 _ ST' j sj E AJ)|].
    destruct (le_lt_dec j m1) as [LE|GT]; [apply (IN0 j sj); [lia|exact AJ]|].
    destruct (IN1 j sj) as (X & SX & NX); [lia|exact AJ|].
    exists (X ++ [f1]). rewrite <- app_assoc. split; [exact SX|]. destruct X; [destruct (NX eq_refl)|discriminate].
Qed.
End Run.

(* A stop at a call's return is the return of a call whose call expression has
   the target span: the call was made at some earlier step m; from then on
   the callee's frames stay above the caller's frame and the frames below it,
   which are untouched; the stopped value is the value the callee's frame
   returns, and the plain run's next step pushes exactly that value onto the
   caller's frame. *)
Theorem return_stop_is_call_completion t p fuel ss0 n v ssf spre :
  depth ss0 = 1 ->
  run_stop t p fuel 0 ss0 = TStopped n v ssf ->
  iter_stop t p (n - 1) ss0 = Some spre -> top_entry (base spre) = None ->
  exists m sm fm rest e td f' callee fb,
    S m < n /\ iter_stop t p m ss0 = Some sm /\ plain_iter p m (base ss0) = Some (base sm) /\
    stack (base sm) = fm :: rest /\ todo fm = (SDone, e) :: td /\ epos e = t /\
    (exists mm fe args, e = ECall mm fe args /\ uses callee = used mm) /\
    exec p (set_todo fm td) SDone e = XCall f' callee /\ todo f' = td /\
    (forall j, m < j < n -> exists sj X, plain_iter p j (base ss0) = Some sj /\ stack sj = X ++ f' :: rest /\ X <> []) /\
    stack (base spre) = fb :: f' :: rest /\ todo fb = [] /\ (exists vs, vals fb = v :: vs) /\
    stack (base ssf) = f' :: rest /\
    (exists s_n, plain_iter p n (base ss0) = Some s_n /\ stack s_n = push_val_if (uses fb) f' v :: rest).
Proof.
  intros D0 RUN IS TE. destruct (run_stop_last _ _ _ _ _ _ _ _ RUN IS) as (j & -> & IJ & SJ). clear RUN IS.
  pose proof (step_stop_spec t p spre) as SI. rewrite SJ in SI. destruct SI as (s_n & PN & _ & SH).
  unfold stop_shape in SH. unfold top_entry in TE.
  destruct (stack (base spre)) as [|fb rest0] eqn:ST; [contradiction|].
  destruct (todo fb) as [|x td0] eqn:TDB; [|discriminate TE]. clear TE.
  destruct SH as (caller & rest' & vs & -> & VB & CSP & STF & STN).
  destruct (top_frame_opened t p ss0 D0 j spre IJ)
    as [D1|[m sm fm rest e td f' callee top LM AM STM TDM EXM IN STX CSX]].
  { unfold depth in D1. rewrite ST in D1. discriminate D1. }
  rewrite ST in STX. inversion STX; subst top caller rest'. rewrite CSP in CSX. injection CSX as PE _.
  destruct (exec_call_shape _ _ _ _ _ _ EXM) as (_ & ESH & TDF & _).
  exists m, sm, fm, rest, e, td, f', callee, fb.
  split; [lia|]. split; [exact AM|]. split; [exact (iter_stop_plain _ _ _ _ _ AM)|].
  split; [exact STM|]. split; [exact TDM|]. split; [now symmetry|]. split; [exact ESH|]. split; [exact EXM|].
  split; [exact TDF|]. split.
  { intros j' [La Lb]. destruct (iter_stop_prefix t p j' j ss0 spre IJ) as (sj & AJ & _); [lia|].
    destruct (IN j' sj) as (X & SX & NE); [lia|exact AJ|].
    exists (base sj), X. split; [exact (iter_stop_plain _ _ _ _ _ AJ)|]. split; assumption. }
  split; [reflexivity|]. split; [exact TDB|]. split; [eauto|]. split; [exact STF|].
  exists s_n. split; [exact (plain_iter_last _ _ _ _ _ (iter_stop_plain _ _ _ _ _ IJ) PN)|exact STN].
Qed.

(* a call target:   fun f(x) { x + 1 }   f(2) *)
Definition exc_f : ident := 20%N.
Definition exc_x : ident := 21%N.
Definition exc_prog : prog :=
  {| globals := [(exc_f, VFun exc_f [])];
     funs := [(exc_f, {| fparams := [exc_x];
                         fbody := [EBin (mm true 11 16) (BInt OAdd) (EVar (mm true 11 12) exc_x) (EInt (mm true 15 16) 1%Z)] |})] |}.
Definition exc_call : expr := ECall (mm true 19 23) (EVar (mm true 19 20) exc_f) [EInt (mm true 21 22) 2%Z].

Lemma exc_stops : exists n ssf,
  run_stop (19, 23)%N exc_prog 100 0 (mkS (init_state [exc_call] None None) []) = TStopped n (VInt 3) ssf /\
  stack (base ssf) = [mkFrame [] [vunit] [[]] [] true].
Proof. eexists. eexists. split; vm_compute; reflexivity. Qed.

(* eval-up-to on `for x in it { body }` (target = the loop, iterated expression
   in the fragment): the machine evaluates `it`, enters the first iteration and
   stops there with Unit -- eval_up_to then reports the value of x
   (MachineStop.reported) --; with an empty list it stops after the loop's
   terminating step.  In the stopped state x is bound to the first element. *)
Theorem for_target_stops_in_first_iteration t p m x it body ss f rest T :
  frag t it -> eused it = true -> epos it <> t -> epos (EFor m x it body) = t ->
  stack (base ss) = f :: rest -> todo f = (SNot, EFor m x it body) :: T ->
  reach t p T rest ss (FinFail t p T rest) \/
  reach t p T rest ss (fun pre => above T rest pre /\
    exists f2 itv f3 pr ss',
      stack (base pre) = f2 :: rest /\ todo f2 = (SPart BWill, EFor m x it body) :: T /\
      vals f2 = itv :: VInt 0 :: vals f /\
      exec p (set_todo f2 T) (SPart BWill) (EFor m x it body) = XOk f3 pr /\
      step_stop t p pre = OStopped vunit ss' /\ stack (base ss') = f3 :: rest /\ callers ss' = callers ss /\
      (forall elem items, itv = VList (elem :: items) -> N.eqb x underscore = false ->
         get_var p f3 x = Some elem)).
Proof.
  intros FR Ui Ni PE ST TD. set (e := EFor m x it body) in *.
  pose proof (step_stage t p T rest ss f SNot e ST TD eq_refl eq_refl) as S1.
  cbn [exec e] in S1. apply (runs_bind S1). intros ss1 [ST1 <-].
  apply (runs_bind
           (sub_eval t p it [(SPart BWill, e)] T rest ss1 _ (proj1 (frag_contracts t p) it FR) Ni ST1 eq_refl)).
  intros ss2 (f2 & ST2 & TD2 & PU2 & <-). rewrite Ui in PU2. destruct PU2 as [itv VL].
  cbn [vals push_todo push_val set_todo] in VL.
  (* the step of the entry (PartiallyEvaluated, e): any outcome but an error stops *)
  destruct (entry_step t p T rest ss2 f2 (SPart BWill) e ST2 TD2) as [B|E]; [left; exact B|].
  destruct (exec p (set_todo f2 T) (SPart BWill) e) as [f3 pr|f3 callee|er| |] eqn:EX; try contradiction;
    try (exfalso; cbn [exec e vals set_todo] in EX; rewrite VL in EX;
         destruct itv; try discriminate; destruct (nth_error l (Z.to_nat 0)); discriminate).
  right. apply reach_now. split; [exact (above_head _ _ _ _ _ ST2 TD2)|].
  unfold after_ok in E. rewrite (proj2 (pos_eqb_eq _ _) PE) in E. cbn [done_after is_for_part e] in E.
  exists f2, itv, f3, pr. eexists. split; [exact ST2|]. split; [exact TD2|]. split; [exact VL|].
  split; [exact EX|]. split; [exact E|]. split; [reflexivity|]. split; [reflexivity|].
  intros elem items -> NU. cbn [exec e vals set_todo] in EX. rewrite VL in EX.
  cbn [nth_error Z.to_nat] in EX. rewrite NU in EX. inversion EX; subst f3 pr.
  unfold get_var. rewrite eval_block_blocks_eq. cbn [nextb set_nextb add_all blocks]. unfold add_new. rewrite NU.
  cbn [lookup_blocks assoc]. rewrite N.eqb_refl. reflexivity.
Qed.

(* for x in [1, 2] {}  : eval-up-to on the loop reports the first value of x *)
Definition exf : expr :=
  EFor (mm true 0 20) 30%N (EList (mm true 9 15) [EInt (mm true 10 11) 1%Z; EInt (mm true 13 14) 2%Z]) [].

Lemma exf_reports : exists n, eval_up_to true ex_prog [exf] (0, 20)%N None None 100 = UValue (VInt 1) n.
Proof. eexists. vm_compute. reflexivity. Qed.
