(* C06 -- Block-local variables never outlive their block.
   Statements; proofs in MachineInv.v (the example is evaluated here).  The evaluator model (Machine.v)
   is tied to src/eval.rs by differential execution (tools/props/C06.py). *)
From Coq Require Import ZArith NArith Bool List.
From Garden Require Import Base.Int64 Arith gen.Tables Machine MachineInv.
Import ListNotations.
Open Scope nat_scope.

(* An evaluation step that succeeds (`Next`) keeps, in every stack frame, the equation
     live binding blocks = base + pending block-popping continuations
   whatever it does: normal block exit, break, continue, return, a call
   (new frame with its own base) or a return to the caller. *)
Theorem depth_invariant : forall p s s' bases,
  inv bases s -> step p s = Next s' ->
  exists bases', inv bases' s' /\
    (bases' = bases \/ (exists b, bases' = b :: bases) \/ bases' = tl bases).
Proof. exact frame_block_discipline. Qed.
Print Assumptions depth_invariant.

(* break / continue / return discard continuation entries and pop exactly the
   blocks those entries owned. *)
Theorem break_restores_scope : forall t bs vs t' bs' vs' lu,
  break_unwind t bs vs = Some (t', bs', vs', lu) -> length bs' + pending t = length bs + pending t'.
Proof. exact break_unwind_balance. Qed.
Print Assumptions break_restores_scope.

Theorem continue_restores_scope : forall t bs t' bs',
  continue_unwind t bs = Some (t', bs') -> length bs' + pending t = length bs + pending t'.
Proof. exact continue_unwind_balance. Qed.
Print Assumptions continue_restores_scope.

Theorem return_restores_scope : forall t bs bs',
  return_unwind t bs = Some bs' -> length bs = length bs' + pending t.
Proof. exact return_unwind_balance. Qed.
Print Assumptions return_restores_scope.

(* For every program, every reachable state (any number of steps, failures and
   resumptions) of a toplevel evaluation: the toplevel frame holds exactly
   1 + pending binding blocks ... *)
Theorem block_exit_restores_scope : forall p exprs tl sl s f,
  reach p (init_state exprs tl sl) s -> bottom (stack s) = Some f ->
  length (blocks f) = 1 + pending (todo f).
Proof. exact toplevel_block_discipline. Qed.
Print Assumptions block_exit_restores_scope.

(* ... so between toplevel statements only the toplevel scope exists: no
   binding made inside a block can still be visible. *)
Theorem local_not_visible_after : forall p exprs tl sl s f,
  reach p (init_state exprs tl sl) s -> bottom (stack s) = Some f ->
  Forall (fun x => fst x = SNot) (todo f) -> length (blocks f) = 1.
Proof. exact toplevel_scope_restored. Qed.
Print Assumptions local_not_visible_after.

(* Non-vacuity: `while True { if True { let z = 5  break } }` then `z`:
   runs to "no such variable" with one binding block left. *)
Definition mt (u : bool) : meta := {| used := u; pstart := 0; pend := 0 |}.
Definition ex_prog : prog := {| globals := [(5%N, vtrue)]; funs := [] |}.
Definition ex_exprs : list expr :=
  [ EWhile (mt true) (EVar (mt true) 5%N)
      [ EIf (mt false) (EVar (mt true) 5%N) [ ELet (mt false) 7%N (EInt (mt true) 5%Z); EBreak (mt false) ] None ];
    EVar (mt true) 7%N ].
Example break_example :
  match run ex_prog 100 (init_state ex_exprs None None) with
  | RFailed e s => ekind_of e = KException /\ map (fun f => length (blocks f)) (stack s) = [1]
  | _ => False
  end.
Proof. vm_compute. split; reflexivity. Qed.
Print Assumptions break_example.
