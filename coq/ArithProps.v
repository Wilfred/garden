(* Proofs about the integer-operator semantics: C04 (with ArithTables.v); also used by
   PreludeProps.v (C32) and RefineProps.v (C05, C11). *)
From Coq Require Import ZArith Bool List Lia.
From Garden Require Import Base.Int64 Arith ArithSpec.
Import ListNotations.
Open Scope Z_scope.

Lemma in64_iff z : in64 z = true <-> - 2 ^ 63 <= z <= 2 ^ 63 - 1.
Proof. unfold in64, min64, max64. rewrite andb_true_iff, !Z.leb_le. tauto. Qed.

Lemma wrap64_in z : in64 (wrap64 z) = true.
Proof. apply in64_iff. unfold wrap64. pose proof (Z.mod_pos_bound (z + 2 ^ 63) (2 ^ 64) eq_refl). lia. Qed.

Lemma wrap64_id z : in64 z = true -> wrap64 z = z.
Proof. intros H. apply in64_iff in H. unfold wrap64. rewrite Z.mod_small by lia. lia. Qed.

(* with wrap64_in this characterises two's-complement wrap-around *)
Lemma wrap64_congr z : exists k, wrap64 z = z + k * 2 ^ 64.
Proof.
  unfold wrap64. exists (- ((z + 2 ^ 63) / 2 ^ 64)).
  pose proof (Z.div_mod (z + 2 ^ 63) (2 ^ 64) ltac:(lia)). lia.
Qed.

Lemma quot_abs_half a b : 2 <= Z.abs b -> 2 * Z.abs (Z.quot a b) <= Z.abs a.
Proof.
  intro Hb. transitivity (Z.abs b * Z.abs (Z.quot a b)).
  - apply Z.mul_le_mono_nonneg_r; [apply Z.abs_nonneg | exact Hb].
  - rewrite <- Z.quot_abs by lia. apply Z.mul_quot_le; lia.
Qed.

Lemma quot_in64 a b : in64 a = true -> in64 b = true -> b <> 0 ->
  ~ (a = min64 /\ b = -1) -> in64 (Z.quot a b) = true.
Proof.
  unfold min64. intros Ha Hb Hb0 Hm. apply in64_iff in Ha, Hb. apply in64_iff.
  destruct (Z.eq_dec b (-1)) as [->|Hn1].
  - change (-1) with (- (1)). rewrite Z.quot_opp_r, Z.quot_1_r by lia. lia.
  - destruct (Z.eq_dec b 1) as [->|H1]. { rewrite Z.quot_1_r. lia. }
    assert (H : 2 * Z.abs (Z.quot a b) <= Z.abs a) by (apply quot_abs_half; lia). lia.
Qed.

Lemma quot_min_neg1 : in64 (Z.quot min64 (-1)) = false.
Proof. reflexivity. Qed.

Lemma rem_euclid_bound a b : b <> 0 -> 0 <= rem_euclid a b < Z.abs b.
Proof. intros H. unfold rem_euclid. apply Z.mod_pos_bound. lia. Qed.

Lemma rem_euclid_eq a b : b <> 0 -> exists q, a = b * q + rem_euclid a b.
Proof.
  intros H. unfold rem_euclid.
  pose proof (Z.div_mod a (Z.abs b) ltac:(lia)) as E.
  destruct (Z.abs_spec b) as [[_ Hb]|[_ Hb]]; rewrite Hb in *.
  - eexists; exact E.
  - exists (- (a / - b)). lia.
Qed.

Lemma rem_euclid_in64 a b : in64 b = true -> b <> 0 -> in64 (rem_euclid a b) = true.
Proof.
  intros Hb H0. apply in64_iff in Hb. apply in64_iff. pose proof (rem_euclid_bound a b H0). lia.
Qed.

Lemma big_pow_not_in64 a e : 2 <= Z.abs a -> 64 <= e -> in64 (a ^ e) = false.
Proof.
  intros Ha He. apply not_true_iff_false. rewrite in64_iff.
  assert (H : 2 ^ 64 <= Z.abs (a ^ e)).
  { rewrite Z.abs_pow. transitivity (2 ^ e).
    - apply Z.pow_le_mono_r; lia.
    - apply Z.pow_le_mono_l; lia. }
  lia.
Qed.

Lemma pow_neg1 e : 0 <= e -> (-1) ^ e = if Z.even e then 1 else -1.
Proof.
  intros He. destruct (Z.even e) eqn:E.
  - apply Z.even_spec in E. change (-1) with (- (1)). rewrite Z.pow_opp_even by exact E.
    apply Z.pow_1_l; lia.
  - assert (O : Z.odd e = true) by (rewrite <- Z.negb_even, E; reflexivity).
    apply Z.odd_spec in O. change (-1) with (- (1)). rewrite Z.pow_opp_odd by exact O.
    rewrite Z.pow_1_l by lia. reflexivity.
Qed.

Lemma small_base a : Z.abs a <= 1 -> a = 0 \/ a = 1 \/ a = -1.
Proof. lia. Qed.

Lemma checked_pow_spec a e : 0 <= e ->
  of_opt (checked_pow a e) = if in64 (a ^ e) then Val (a ^ e) else Exn.
Proof.
  intros He. unfold checked_pow.
  destruct (Z.leb_spec (Z.abs a) 1) as [Hs|Hb].
  - destruct (small_base a Hs) as [->|[->| ->]]; cbn [of_opt].
    + change (0 =? 0) with true. cbv iota.
      destruct (Z.eqb_spec e 0) as [->|Hne]; [reflexivity|].
      rewrite Z.pow_0_l by lia. reflexivity.
    + change (1 =? 0) with false. change (1 =? 1) with true. cbv iota.
      rewrite Z.pow_1_l by lia. reflexivity.
    + change (-1 =? 0) with false. change (-1 =? 1) with false. cbv iota.
      rewrite pow_neg1 by lia. destruct (Z.even e); reflexivity.
  - destruct (Z.leb_spec 64 e) as [Hbig|Hsm].
    + rewrite big_pow_not_in64 by lia. reflexivity.
    + cbv zeta. destruct (in64 (a ^ e)); reflexivity.
Qed.

Lemma small_base_pow_parity a b : Z.abs a <= 1 -> 0 < b -> a ^ (2 + Z.rem b 2) = a ^ b.
Proof.
  intros Hs Hb.
  assert (Hr : Z.rem b 2 = b mod 2) by (apply Z.rem_mod_nonneg; lia).
  pose proof (Z.mod_pos_bound b 2 eq_refl) as Hm.
  destruct (small_base a Hs) as [->|[->| ->]].
  - rewrite !Z.pow_0_l by lia. reflexivity.
  - rewrite !Z.pow_1_l by lia. reflexivity.
  - rewrite !pow_neg1 by lia. rewrite Hr.
    replace (2 + b mod 2) with (b mod 2 + 2 * 1) by lia.
    rewrite Z.even_add_mul_2.
    rewrite (Z.div_mod b 2) at 2 by lia.
    rewrite (Z.add_comm (2 * (b / 2))), Z.even_add_mul_2. reflexivity.
Qed.

Lemma spec_exec_eq o a b : spec_exec o a b = spec o a b.
Proof.
  destruct o; try reflexivity. cbn [spec_exec spec].
  destruct (Z.ltb_spec b 0); [reflexivity|]. now apply checked_pow_spec.
Qed.

Ltac arm_unfold := unfold arm_sem, A; cbn [guards body run_guards guard_fires core_sem].

Lemma div_core a b : in64 a = true -> in64 b = true -> b <> 0 ->
  (if (a =? min64) && (b =? -1) then Exn else Val (Z.quot a b)) =
  (if in64 (Z.quot a b) then Val (Z.quot a b) else Exn).
Proof.
  intros Ha Hb Hb0.
  destruct (Z.eqb_spec a min64) as [->|Hm]; cbn [andb].
  - destruct (Z.eqb_spec b (-1)) as [->|Hn]; [rewrite quot_min_neg1; reflexivity|].
    rewrite quot_in64 by (auto; intros [_ ?]; contradiction). reflexivity.
  - rewrite quot_in64 by (auto; intros [? _]; contradiction). reflexivity.
Qed.

Lemma div_arm1 oc a b : in64 a = true -> in64 b = true ->
  arm_sem oc (A [GRhsZero; GMinDivNegOne] CPlainDiv) a b = spec ODiv a b.
Proof.
  intros Ha Hb. arm_unfold. cbn [spec].
  destruct (Z.eqb_spec b 0) as [->|Hb0]; [reflexivity|].
  rewrite <- div_core by assumption.
  destruct ((a =? min64) && (b =? -1)); reflexivity.
Qed.

Lemma div_arm2 oc a b : in64 a = true -> in64 b = true ->
  arm_sem oc (A [GMinDivNegOne; GRhsZero] CPlainDiv) a b = spec ODiv a b.
Proof.
  intros Ha Hb. arm_unfold. cbn [spec].
  destruct (Z.eqb_spec b 0) as [->|Hb0].
  - rewrite andb_false_r. reflexivity.
  - rewrite <- div_core by assumption.
    destruct ((a =? min64) && (b =? -1)); reflexivity.
Qed.

Lemma div_arm3 oc a b : arm_sem oc (A [GRhsZero] CCheckedDiv) a b = spec ODiv a b.
Proof. arm_unfold. cbn [spec]. destruct (b =? 0); reflexivity. Qed.

Lemma div_arm4 oc a b : arm_sem oc (A [] CCheckedDiv) a b = spec ODiv a b.
Proof. reflexivity. Qed.

Lemma mod_arm1 oc a b : arm_sem oc (A [GRhsZero] CWrapRemEuclid) a b = spec OMod a b.
Proof. arm_unfold. cbn [spec]. destruct (b =? 0); reflexivity. Qed.

Lemma pow_arm1 oc a b : in64 a = true -> in64 b = true ->
  arm_sem oc (A [GRhsNeg; GRhsGtU32BigBase] CCheckedPowParity) a b = spec OPow a b.
Proof.
  intros Ha Hb. arm_unfold. cbn [spec].
  destruct (Z.ltb_spec b 0) as [Hneg|Hnn]; [reflexivity|].
  destruct (Z.ltb_spec u32max b) as [Hbig|Hsm]; cbn [andb].
  - unfold u32max in Hbig.
    destruct (Z.ltb_spec 1 (Z.abs a)) as [Hbase|Hbase].
    + rewrite big_pow_not_in64; [reflexivity|lia|lia].
    + assert (Hr : Z.rem b 2 = b mod 2) by (apply Z.rem_mod_nonneg; lia).
      pose proof (Z.mod_pos_bound b 2 eq_refl) as Hm.
      rewrite (Z.mod_small (2 + Z.rem b 2)) by lia.
      rewrite checked_pow_spec by lia.
      rewrite small_base_pow_parity by lia. reflexivity.
  - unfold u32max in Hsm.
    rewrite Z.mod_small by lia.
    apply checked_pow_spec. lia.
Qed.

Lemma ok_arms_correct o m : In m (ok_arms o) ->
  forall oc a b, in64 a = true -> in64 b = true -> arm_sem oc m a b = spec o a b.
Proof.
  intros Hin oc a b Ha Hb.
  destruct o; cbn [ok_arms In] in Hin;
    repeat match goal with H : _ \/ _ |- _ => destruct H as [<-|H] end;
    try contradiction; try reflexivity;
    auto using div_arm1, div_arm2, div_arm3, div_arm4, mod_arm1, pow_arm1.
Qed.

Lemma ok_upd_arms_correct u m : In m (ok_upd_arms u) ->
  forall oc a b, arm_sem oc m a b = spec (upd_as_binop u) a b.
Proof.
  intros Hin oc a b. destruct u; cbn [ok_upd_arms In] in Hin;
    destruct Hin as [<-|[]]; reflexivity.
Qed.

Lemma arm_eqb_eq x y : arm_eqb x y = true -> x = y.
Proof.
  unfold arm_eqb. destruct x as [gx cx], y as [gy cy]; cbn [guards body].
  destruct (list_eq_dec guard_eq_dec gx gy) as [->|]; [|discriminate].
  cbn [andb]. intros H. apply internal_core_dec_bl in H. now subst.
Qed.

Lemma arm_in_In m l : arm_in m l = true -> In m l.
Proof.
  unfold arm_in. rewrite existsb_exists. intros [x [Hx He]].
  apply arm_eqb_eq in He. now subst.
Qed.

Lemma in64_shift z : in64 z = true <-> (Z.shiftr z 63 = 0 \/ Z.shiftr z 63 = -1).
Proof.
  rewrite in64_iff, Z.shiftr_div_pow2 by lia.
  pose proof (Z.div_mod z (2 ^ 63) ltac:(lia)) as E.
  pose proof (Z.mod_pos_bound z (2 ^ 63) eq_refl) as B. lia.
Qed.

Lemma land_in64 a b : in64 a = true -> in64 b = true -> in64 (Z.land a b) = true.
Proof.
  rewrite !in64_shift, Z.shiftr_land. intros [->| ->] [->| ->]; cbn; auto.
Qed.

Lemma lor_in64 a b : in64 a = true -> in64 b = true -> in64 (Z.lor a b) = true.
Proof.
  rewrite !in64_shift, Z.shiftr_lor. intros [->| ->] [->| ->]; cbn; auto.
Qed.

Lemma spec_total o a b : in64 a = true -> in64 b = true ->
  match spec o a b with Val z => in64 z = true | Panic => False | _ => True end.
Proof.
  intros Ha Hb. destruct o; cbn [spec]; try exact I; try apply wrap64_in.
  - destruct (b =? 0); [exact I|]. now destruct (in64 (Z.quot a b)) eqn:E.
  - destruct (Z.eqb_spec b 0); [exact I|]. now apply rem_euclid_in64.
  - destruct (b <? 0); [exact I|]. now destruct (in64 (a ^ b)) eqn:E.
  - now apply land_in64.
  - now apply lor_in64.
Qed.
Lemma spec_in_range o a b z : in64 a = true -> in64 b = true -> spec o a b = Val z -> in64 z = true.
Proof. intros Ha Hb E. pose proof (spec_total o a b Ha Hb) as H. now rewrite E in H. Qed.
