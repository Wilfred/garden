(* Invariants of the transition system of Nrepl.v, proved by induction over
   arbitrary traces (= all interleavings, unbounded inputs).
   `step` is first turned into a relation (sstep, over rstep, wstep, fstep: one
   constructor per transition); every fact about a step is then a case check
   over the relation.  `Inv` holds for all three code variants, `fix2I` for the
   current code (VFix2). *)
From Coq Require Import List Arith Bool Lia.
Import ListNotations.
From Garden Require Import Nrepl.

Lemma nth_upd_same : forall A (l : list A) k v, k < length l -> nth_error (upd k v l) k = Some v.
Proof. induction l; intros [|k] v H; simpl in *; try lia; auto. apply IHl; lia. Qed.

Lemma upd_frame : forall A (l : list A) k j v, j <> k -> nth_error (upd k v l) j = nth_error l j.
Proof. induction l; intros [|k] [|j] v H; simpl; auto; try congruence. Qed.

Lemma nth_lt : forall A (l : list A) k v, nth_error l k = Some v -> k < length l.
Proof. intros. apply nth_error_Some. congruence. Qed.

Lemma nth_upd : forall A (l : list A) k j v s, nth_error l k = Some s ->
  nth_error (upd k v l) j = if Nat.eqb j k then Some v else nth_error l j.
Proof.
  intros. destruct (Nat.eqb_spec j k).
  - subst. apply nth_upd_same. eapply nth_lt; eauto.
  - apply upd_frame; auto.
Qed.

Lemma upd_at : forall A (P : A -> Prop) (l : list A) k0 s0 s0' k s,
  nth_error l k0 = Some s0 -> nth_error l k = Some s -> (k = k0 -> s = s0 -> P s0') -> P s ->
  exists s', nth_error (upd k0 s0' l) k = Some s' /\ P s'.
Proof.
  intros A P l k0 s0 s0' k s E0 E H1 H2. rewrite (nth_upd _ _ _ k s0' _ E0). destruct (Nat.eqb_spec k k0) as [->|N].
  - exists s0'. split; [reflexivity | apply H1; congruence].
  - exists s. auto.
Qed.

Lemma upd_length : forall A (l : list A) k v, length (upd k v l) = length l.
Proof. induction l; intros [|k] v; simpl; auto. Qed.

Lemma nth_app_l : forall A (l : list A) v k s, nth_error l k = Some s -> nth_error (l ++ [v]) k = Some s.
Proof. intros. rewrite nth_error_app1; auto. eapply nth_lt; eauto. Qed.

Lemma nth_app_one : forall A (l : list A) v j s, nth_error (l ++ [v]) j = Some s ->
  nth_error l j = Some s \/ (j = length l /\ s = v).
Proof.
  intros A l v j s H. destruct (lt_dec j (length l)).
  - rewrite nth_error_app1 in H by auto. auto.
  - rewrite nth_error_app2 in H by lia. destruct (j - length l) eqn:E; simpl in H.
    + inversion H; subst. right. split; auto; lia.
    + destruct n0; discriminate.
Qed.

Fixpoint sumf (f : session -> nat) (l : list session) : nat :=
  match l with [] => 0 | s :: t => f s + sumf f t end.

Lemma sum_upd : forall f l k s s', nth_error l k = Some s -> sumf f (upd k s' l) + f s = sumf f l + f s'.
Proof.
  induction l; intros [|k] s s' H; simpl in *; try discriminate.
  - inversion H; subst. lia.
  - specialize (IHl _ _ s' H). lia.
Qed.

Lemma sum_app : forall f a b, sumf f (a ++ b) = sumf f a + sumf f b.
Proof. induction a; simpl; intros; auto. rewrite IHa. lia. Qed.

Lemma sum_ge : forall f l k s, nth_error l k = Some s -> f s <= sumf f l.
Proof.
  induction l; intros [|k] s H; simpl in *; try discriminate.
  - inversion H; subst. lia.
  - specialize (IHl _ _ H). lia.
Qed.

Lemma sum_zero : forall f l, (forall s, In s l -> f s = 0) -> sumf f l = 0.
Proof. induction l; simpl; intros H; auto. rewrite (H a), IHl; auto. Qed.

Lemma done_cnt_app : forall r a b, done_cnt r (a ++ b) = done_cnt r a + done_cnt r b.
Proof. induction a as [|m a IH]; simpl; intros; auto. destruct m; rewrite ?IH; lia. Qed.

Lemma done_cnt_cons : forall r m l, done_cnt r (m :: l) = done_cnt r [m] + done_cnt r l.
Proof. intros. destruct m; simpl; lia. Qed.

Lemma in_done_cnt : forall r s l, In (MDone r s) l -> done_cnt r l >= 1.
Proof.
  induction l as [|m l IH]; simpl; intros H; [contradiction|]. destruct H as [->|H].
  - rewrite Nat.eqb_refl. lia.
  - specialize (IH H). destruct m; lia.
Qed.

Lemma done_unique : forall r a b l, done_cnt r l <= 1 -> In (MDone r a) l -> In (MDone r b) l -> a = b.
Proof.
  induction l as [|m l IH]; simpl; [contradiction|]. intros Hc [Ha|Ha] [Hb|Hb].
  - congruence.
  - subst m. apply in_done_cnt in Hb. rewrite Nat.eqb_refl in Hc. lia.
  - subst m. apply in_done_cnt in Ha. rewrite Nat.eqb_refl in Hc. lia.
  - apply IH; auto. destruct m; lia.
Qed.

Lemma toks_app : forall k r x a b, toks k r x (a ++ b) = toks k r x b ++ toks k r x a.
Proof.
  induction a as [|m a IH]; simpl; intros. - now rewrite app_nil_r.
  - destruct m; rewrite ?IH, ?app_assoc; auto.
Qed.

Lemma toks_cons : forall k r x m l, toks k r x (m :: l) = toks k r x l ++ toks k r x [m].
Proof. intros. destruct m; simpl; rewrite ?app_nil_r; auto. Qed.

Lemma toks_no_id : forall k r x l, (forall m, In m l -> mid m <> r) -> toks k r x l = [].
Proof.
  induction l as [|m l IH]; simpl; intros H; auto.
  destruct m; try (apply IH; intros; apply H; auto).
  rewrite IH by (intros; apply H; auto). simpl.
  destruct (Nat.eqb_spec r0 r).
  - exfalso. apply (H (MOut k0 r0 x0 t)); auto.
  - rewrite andb_false_r. reflexivity.
Qed.

Lemma stream_eqb_refl : forall x, stream_eqb x x = true.
Proof. destruct x; reflexivity. Qed.

Section WorkerStep.
Variables (pv : ver) (k : sid) (s : session).

Inductive wstep : wact -> session -> eff -> Prop :=
| WsDequeue r kd q : s_w s = WIdle -> s_queue s = (r, kd) :: q ->
    wstep WADequeue (set_w (set_queue s q) (WDequeued r kd)) ENone
| WsExit : s_w s = WIdle -> s_queue s = [] -> s_open s = false -> wstep WAExit (set_w s WExited) ENone
| WsReset r kd : s_w s = WDequeued r kd -> counts pv = false ->
    wstep WAReset (set_w (set_err (set_out (set_flag s false) []) [])
                         (if has_closed pv then WResetting r kd else WReady r kd)) ENone
| WsFresh r kd : s_w s = WDequeued r kd -> counts pv = true ->
    wstep WALoadClosed (set_w (set_err (set_out s []) []) (if s_closed s then WReflag r kd else WReady r kd)) ENone
| WsLoadClosed r kd : s_w s = WResetting r kd ->
    wstep WALoadClosed (set_w s (if s_closed s then WReflag r kd else WReady r kd)) ENone
| WsReflag r kd : s_w s = WReflag r kd -> wstep WAReflag (set_w (set_flag s true) (WReady r kd)) ENone
| WsSimple r : s_w s = WReady r KSimple -> wstep (WABegin BSimple) (set_w s (WSend r 0 StDone)) ENone
| WsParseErr r : s_w s = WReady r KEval -> wstep (WABegin BParseErr) (set_w s (WSend r 1 StEvalError)) ENone
| WsWarn r : s_w s = WReady r KEval -> wstep (WABegin BWarn) (set_w s (WWarned r)) (ESend (MText k r))
| WsSpawn r : s_w s = WReady r KEval ->
    wstep (WABegin BSpawn) (set_w (set_fl (set_stop s false) (Some (r, FWait))) (WRun r)) ENone
| WsSpawnWarned r : s_w s = WWarned r ->
    wstep (WABegin BSpawn) (set_w (set_fl (set_stop s false) (Some (r, FWait))) (WRun r)) ENone
| WsDefine r d : s_w s = WReady r KEval -> wstep (WADefine d) (set_env s (d :: s_env s)) (EDef d)
| WsSees r d : s_w s = WRun r -> memb d (s_env s) = true -> wstep (WASees d) s ENone
| WsInterrupted r : s_w s = WRun r -> s_flag s = true ->
    wstep WACheck (set_w (set_flag s false) (WStop r RInterrupted)) ENone
| WsCheck r : s_w s = WRun r -> s_flag s = false -> wstep WACheck s ENone
| WsPrint r x t : s_w s = WRun r -> wstep (WAPrint x t) (set_buf s x (buf s x ++ [t])) (EPrint r x t)
| WsFinish r res : s_w s = WRun r -> res <> RInterrupted -> wstep (WAFinish res) (set_w s (WStop r res)) ENone
| WsStopFl r res : s_w s = WStop r res -> wstep WAStopFl (set_w (set_stop s true) (WJoin r res)) ENone
| WsJoin r res r' : s_w s = WJoin r res -> s_fl s = Some (r', FExited) ->
    wstep WAJoin (set_w (set_fl s None) (WDrain r res SOut)) ENone
| WsDrained r res x : s_w s = WDrain r res x -> buf s x = [] -> wstep WATake (set_w s (after_drain r res x)) ENone
| WsTake r res x t0 t : s_w s = WDrain r res x -> buf s x = t0 :: t ->
    wstep WATake (set_w (set_buf s x []) (WDrainSend r res x (t0 :: t))) ENone
| WsSendOut r res x t : s_w s = WDrainSend r res x t ->
    wstep WASend (set_w s (after_drain r res x)) (ESend (MOut k r x t))
| WsSendText r n st : s_w s = WSend r (S n) st -> wstep WASend (set_w s (WSend r n st)) (ESend (MText k r))
| WsSendDone r st : s_w s = WSend r 0 st ->
    wstep WASend (set_w s (if counts pv then WFinishing else WIdle)) (ESend (MDone r st))
| WsDoneLast : s_w s = WFinishing -> pred (s_pending s) = 0 ->
    wstep WADone (set_w (set_pending (set_flag s false) 0) WIdle) ENone
| WsDone p : s_w s = WFinishing -> pred (s_pending s) = S p ->
    wstep WADone (set_w (set_pending s (S p)) WIdle) ENone.

End WorkerStep.

Lemma worker_step_spec : forall pv k s a s' e, worker_step pv k s a = Some (s', e) -> wstep pv k s a s' e.
Proof.
  intros pv k s a s' e H. unfold worker_step in H.
  destruct (s_w s) eqn:Ew; destruct a; try discriminate H;
    repeat match type of H with match ?x with _ => _ end = _ => destruct x eqn:?; try discriminate H end;
    injection H as <- <-; econstructor; first [eassumption | discriminate].
Qed.

Section FlusherStep.
Variables (k : sid) (s : session) (r : rid).

Inductive fstep : fpc -> fact -> session -> eff -> Prop :=
| FsTimeout : fstep FWait FATimeout (set_fl s (Some (r, FTake SOut))) ENone
| FsStop : s_stop s = true -> fstep FWait FAStop (set_fl s (Some (r, FExited))) ENone
| FsEmpty x : buf s x = [] -> fstep (FTake x) FATake (set_fl s (Some (r, fnext x))) ENone
| FsTake x t0 t : buf s x = t0 :: t ->
    fstep (FTake x) FATake (set_fl (set_buf s x []) (Some (r, FSend x (t0 :: t)))) ENone
| FsSend x t : fstep (FSend x t) FASend (set_fl s (Some (r, fnext x))) (ESend (MOut k r x t)).

End FlusherStep.

Lemma flusher_step_spec : forall k s a s' e, flusher_step k s a = Some (s', e) ->
  exists r pc, s_fl s = Some (r, pc) /\ fstep k s r pc a s' e.
Proof.
  intros k s a s' e H. unfold flusher_step in H. destruct (s_fl s) as [[r pc]|]; [|discriminate H].
  exists r, pc. split; [reflexivity|].
  destruct pc; destruct a; try discriminate H;
    repeat match type of H with match ?x with _ => _ end = _ => destruct x eqn:?; try discriminate H end;
    injection H as <- <-; econstructor; eassumption.
Qed.

Section ReaderStep.
Variables (pv : ver) (st : state).

Inductive rstep : ract -> state -> Prop :=
| RsEnq r k kd s : st_rd st = RGot r (OSess k kd) -> nth_error (st_sess st) k = Some s -> s_open s = true ->
    rstep RAEnq (rd_set st RIdle (upd k (set_pending (set_queue s (s_queue s ++ [(r, kd)]))
                                                     (if counts pv then S (s_pending s) else s_pending s))
                                      (st_sess st)))
| RsUnknown r o k : st_rd st = RGot r o -> op_session o = Some k -> open_sess st k = None ->
    rstep RAUnknown (rd_set st (RSend r StUnknownSession) (st_sess st))
| RsInterrupt r k s : st_rd st = RGot r (OInterrupt k) -> nth_error (st_sess st) k = Some s -> s_open s = true ->
    counts pv && (s_pending s =? 0) = false ->
    rstep RAFlag (rd_set st (RSend r StDone) (upd k (set_flag s true) (st_sess st)))
| RsIgnore r k s : st_rd st = RGot r (OInterrupt k) -> nth_error (st_sess st) k = Some s -> s_open s = true ->
    counts pv && (s_pending s =? 0) = true ->
    rstep RAIgnore (rd_set st (RSend r StDone) (st_sess st))
| RsCloseAsFound r k s : st_rd st = RGot r (OClose k) -> has_closed pv = false ->
    nth_error (st_sess st) k = Some s -> s_open s = true ->
    rstep RAFlag (rd_set st (RCloseDrop r k) (upd k (set_flag s true) (st_sess st)))
| RsClosed r k s : st_rd st = RGot r (OClose k) -> has_closed pv = true ->
    nth_error (st_sess st) k = Some s -> s_open s = true ->
    rstep RAClosed (rd_set st (RCloseFlag r k) (upd k (set_closed s true) (st_sess st)))
| RsCloseFlag r k s : st_rd st = RCloseFlag r k -> nth_error (st_sess st) k = Some s ->
    rstep RAFlag (rd_set st (RCloseDrop r k) (upd k (set_flag s true) (st_sess st)))
| RsDrop r k s : st_rd st = RCloseDrop r k -> nth_error (st_sess st) k = Some s ->
    rstep RADrop (rd_set st (RSend r StSessionClosed) (upd k (set_open s false) (st_sess st)))
| RsNew r : st_rd st = RGot r OClone -> rstep RANew (rd_set st (RSend r StDone) (st_sess st ++ [new_session]))
| RsPlain r : st_rd st = RGot r OPlain -> rstep RAPlain (rd_set st (RSend r StDone) (st_sess st))
| RsSend r x : st_rd st = RSend r x ->
    rstep RASend {| st_next := st_next st; st_rd := RIdle; st_sess := st_sess st;
                    st_chan := st_chan st ++ [MDone r x]; st_wire := st_wire st;
                    st_sent := MDone r x :: st_sent st; st_printed := st_printed st; st_defs := st_defs st |}.

End ReaderStep.

Lemma open_sess_inv : forall st k s, open_sess st k = Some s -> nth_error (st_sess st) k = Some s /\ s_open s = true.
Proof.
  unfold open_sess. intros st k s H. destruct (nth_error (st_sess st) k) as [s0|]; [|discriminate H].
  destruct (s_open s0) eqn:Eo; [|discriminate H]. injection H as <-. auto.
Qed.

Lemma reader_step_spec : forall pv st a st', reader_step pv st a = Some st' -> rstep pv st a st'.
Proof.
  intros pv st a st' H. unfold reader_step in H.
  destruct a; destruct (st_rd st) as [|? []| | |] eqn:Erd; try discriminate H;
    repeat match type of H with match ?x with _ => _ end = _ => destruct x eqn:?; try discriminate H end;
    injection H as <-; try match goal with E : open_sess _ _ = Some _ |- _ => apply open_sess_inv in E as [? ?] end;
    solve [econstructor; eassumption].
Qed.

Section Step.
Variables (pv : ver) (st : state).

Inductive sstep : label -> state -> Prop :=
| SsRecv o : st_rd st = RIdle ->
    sstep (LRecv o) {| st_next := S (st_next st); st_rd := RGot (st_next st) o; st_sess := st_sess st;
                       st_chan := st_chan st; st_wire := st_wire st;
                       st_sent := st_sent st; st_printed := st_printed st; st_defs := st_defs st |}
| SsReader a st' : rstep pv st a st' -> sstep (LReader a) st'
| SsWorker k a s s' e : nth_error (st_sess st) k = Some s -> wstep pv k s a s' e ->
    sstep (LWorker k a) (apply_eff st k s' e)
| SsFlusher k a s r pc s' e : nth_error (st_sess st) k = Some s -> s_fl s = Some (r, pc) -> fstep k s r pc a s' e ->
    sstep (LFlusher k a) (apply_eff st k s' e)
| SsWriter m c : st_chan st = m :: c ->
    sstep LWriter {| st_next := st_next st; st_rd := st_rd st; st_sess := st_sess st;
                     st_chan := c; st_wire := m :: st_wire st;
                     st_sent := st_sent st; st_printed := st_printed st; st_defs := st_defs st |}
| SsSigintIdle k s : nth_error (st_sess st) k = Some s -> counts pv && (s_pending s =? 0) = true ->
    sstep (LSigint k) st
| SsSigint k s : nth_error (st_sess st) k = Some s -> counts pv && (s_pending s =? 0) = false ->
    sstep (LSigint k) (rd_set st (st_rd st) (upd k (set_flag s true) (st_sess st))).

End Step.

Lemma step_spec : forall pv st l st', step pv st l = Some st' -> sstep pv st l st'.
Proof.
  intros pv st l st' H. destruct l; simpl in H.
  - destruct (st_rd st) eqn:Erd; try discriminate H. injection H as <-. constructor. exact Erd.
  - constructor. apply reader_step_spec. exact H.
  - destruct (nth_error (st_sess st) k) as [s|] eqn:Ek; [|discriminate H].
    destruct (worker_step pv k s a) as [[s' e]|] eqn:Ew; [|discriminate H]. injection H as <-.
    econstructor; [exact Ek | apply worker_step_spec; exact Ew].
  - destruct (nth_error (st_sess st) k) as [s|] eqn:Ek; [|discriminate H].
    destruct (flusher_step k s a) as [[s' e]|] eqn:Ew; [|discriminate H]. injection H as <-.
    apply flusher_step_spec in Ew as (r & pc & Ef & Ew). econstructor; eassumption.
  - destruct (st_chan st) eqn:Ec; [discriminate H|]. injection H as <-. constructor. exact Ec.
  - destruct (nth_error (st_sess st) k) as [s|] eqn:Ek; [|discriminate H].
    destruct (counts pv && (s_pending s =? 0)) eqn:Ep; injection H as <-; econstructor; eassumption.
Qed.

Fixpoint cntq (r : rid) (q : list (rid * kind)) : nat :=
  match q with [] => 0 | (r', _) :: t => (if Nat.eqb r' r then 1 else 0) + cntq r t end.

Lemma cntq_app : forall r a b, cntq r (a ++ b) = cntq r a + cntq r b.
Proof. induction a as [|[r' kd] a IH]; simpl; intros; auto. rewrite IH. lia. Qed.

Definition cur_cnt (r : rid) (pc : wpc) : nat :=
  match cur pc with Some r' => if Nat.eqb r' r then 1 else 0 | None => 0 end.

(* how many times request r is held by session s (queued or being processed) *)
Definition sess_cnt (r : rid) (s : session) : nat := cntq r (s_queue s) + cur_cnt r (s_w s).

Definition rd_cnt (r : rid) (pc : rpc) : nat :=
  match pc with
  | RIdle => 0
  | RGot r' _ | RCloseFlag r' _ | RCloseDrop r' _ | RSend r' _ => if Nat.eqb r' r then 1 else 0
  end.

Definition live_cnt (r : rid) (st : state) : nat := rd_cnt r (st_rd st) + sumf (sess_cnt r) (st_sess st).

Lemma cur_live : forall s r, cur (s_w s) = Some r -> sess_cnt r s >= 1.
Proof. intros s r E. unfold sess_cnt, cur_cnt. rewrite E, Nat.eqb_refl. lia. Qed.

(* text taken from a buffer but not yet sent, by the flusher and by the worker's final drain *)
Definition flinfl (fl : option (rid * fpc)) (x : stream) : list tok :=
  match fl with Some (_, FSend x' t) => if stream_eqb x' x then t else [] | _ => [] end.
Definition winfl (pc : wpc) (x : stream) : list tok :=
  match pc with WDrainSend _ _ x' t => if stream_eqb x' x then t else [] | _ => [] end.
(* printed by request r but not yet on the response channel *)
Definition pend (s : session) (r : rid) (x : stream) : list tok :=
  match cur (s_w s) with
  | Some r' => if Nat.eqb r' r then flinfl (s_fl s) x ++ buf s x ++ winfl (s_w s) x else []
  | None => []
  end.

(* Which threads and buffers exist at which worker pc: a flusher, for the request of the
   eval, from its spawn to its join; text in a buffer only from the spawn to the buffer's
   final drain.  (Two small functions of the pc, so that a fact `s_w s = pc` rewrites
   in them and not in a fourteen-branch match.) *)
Definition fl_owner (pc : wpc) : option rid :=
  match pc with WRun r | WStop r _ | WJoin r _ => Some r | _ => None end.
Definition may_hold (pc : wpc) (x : stream) : bool :=
  match pc, x with
  | (WRun _ | WStop _ _ | WJoin _ _ | WDrain _ _ SOut), _ => true
  | (WDrain _ _ SErr | WDrainSend _ _ SOut _), SErr => true
  | _, _ => false
  end.
Definition swf (s : session) : Prop :=
  match fl_owner (s_w s) with Some r => exists pc, s_fl s = Some (r, pc) | None => s_fl s = None end /\
  forall x, may_hold (s_w s) x = false -> buf s x = [].

Lemma fl_owner_run : forall pc r, fl_owner pc = Some r ->
  cur pc = Some r /\ (forall x, may_hold pc x = true) /\ forall x, winfl pc x = [].
Proof. intros pc r H. destruct pc; try discriminate H; injection H as <-; auto. Qed.

Lemma swf_flusher : forall s r pc, swf s -> s_fl s = Some (r, pc) -> fl_owner (s_w s) = Some r.
Proof.
  intros s r pc [Wf _] Ef. rewrite Ef in Wf.
  destruct (fl_owner (s_w s)); [destruct Wf as [pc' [= ->]]; reflexivity | discriminate Wf].
Qed.

Definition eff_done (r : rid) (e : eff) : nat := match e with ESend m => done_cnt r [m] | _ => 0 end.
Definition eff_toks (j : sid) (r : rid) (x : stream) (e : eff) : list tok :=
  match e with ESend m => toks j r x [m] | _ => [] end.
Definition eff_ptoks (j k : sid) (r : rid) (x : stream) (e : eff) : list tok :=
  match e with EPrint r0 x0 t => ptoks j r x [(k, r0, x0, t)] | _ => [] end.

Lemma apply_eff_sess : forall st k s' e, st_sess (apply_eff st k s' e) = upd k s' (st_sess st).
Proof. destruct e; reflexivity. Qed.

Lemma apply_eff_rd : forall st k s' e, st_rd (apply_eff st k s' e) = st_rd st.
Proof. destruct e; reflexivity. Qed.

Lemma apply_eff_done : forall st k s' e r,
  done_cnt r (st_sent (apply_eff st k s' e)) = eff_done r e + done_cnt r (st_sent st).
Proof. intros. destruct e; simpl; auto. apply done_cnt_cons. Qed.

Lemma apply_eff_toks : forall st k s' e j r x,
  toks j r x (st_sent (apply_eff st k s' e)) = toks j r x (st_sent st) ++ eff_toks j r x e.
Proof. intros. destruct e; simpl; rewrite ?app_nil_r; auto. apply toks_cons. Qed.

Lemma apply_eff_ptoks : forall st k s' e j r x,
  ptoks j r x (st_printed (apply_eff st k s' e)) = ptoks j r x (st_printed st) ++ eff_ptoks j k r x e.
Proof. intros. destruct e; simpl; rewrite ?app_nil_r; auto. Qed.

Lemma eff_ptoks_other : forall j k r x e, j <> k -> eff_ptoks j k r x e = [].
Proof. intros j k r x e Hj. destruct e; simpl; auto. apply Nat.eqb_neq in Hj. rewrite (Nat.eqb_sym k j), Hj. reflexivity. Qed.

Record local_ok (k : sid) (s s' : session) (e : eff) : Prop := {
  lo_swf : swf s';
  lo_cnt : forall r, eff_done r e + sess_cnt r s' = sess_cnt r s;
  lo_live : forall m, e = ESend m -> sess_cnt (mid m) s >= 1;
  lo_out : forall r x, eff_toks k r x e ++ pend s' r x = pend s r x ++ eff_ptoks k k r x e;
  lo_tag : forall j r x, j <> k -> eff_toks j r x e = [];
  lo_env : forall d, In d (s_env s') -> In d (s_env s) \/ e = EDef d
}.

Lemma worker_local_ok : forall pv k s a s' e, swf s -> wstep pv k s a s' e -> local_ok k s s' e.
Proof.
  intros pv k s a s' e [Wf Wb] H. pose proof (Wb SOut) as Wo. pose proof (Wb SErr) as We. clear Wb.
  (* With s a record of variables every projection computes, and the equations of a transition and
     what swf says at its pc substitute (x is the stream of a print or drain step; the pc after a
     reset, a load of `closed` or the last send is a conditional).  A transition that only moves
     the pc leaves both sides of lo_cnt and of lo_out convertible; the others move a request, or
     text between a buffer, the worker's hands and the channel. *)
  destruct s as [o c q f out err w fl stop env p]. destruct H; try destruct x;
  cbn [s_w s_queue s_fl s_out s_err s_open s_flag s_env s_pending s_closed buf] in *; subst; simpl in Wf, Wo, We;
  try specialize (Wo eq_refl); try specialize (We eq_refl); subst;
  try match goal with |- context [if ?b then _ else _] => destruct b end;
  (constructor;
    [ split; [ simpl; eauto | intros [] Hy; try reflexivity; try discriminate Hy; auto ]
    | intros rq; try reflexivity; unfold sess_cnt, cur_cnt; simpl; destruct (r =? rq); simpl; lia
    | intros m Hm; try discriminate Hm; injection Hm as <-; apply cur_live; reflexivity
    | intros rq y; try (symmetry; apply app_nil_r); destruct y; unfold pend, flinfl, winfl, eff_toks, eff_ptoks; simpl;
      rewrite ?Nat.eqb_refl; destruct (r =? rq); simpl; rewrite ?app_nil_r, <- ?app_assoc; reflexivity
    | intros j rq y Hj; try reflexivity; apply Nat.eqb_neq in Hj; simpl; rewrite Nat.eqb_sym, Hj; reflexivity
    | intros d0; simpl; auto; intros [->|]; auto ]).
Qed.

Lemma flusher_local_ok : forall k s r pc a s' e, swf s -> s_fl s = Some (r, pc) -> fstep k s r pc a s' e ->
  local_ok k s s' e.
Proof.
  intros k s r pc a s' e W Ef H. pose proof (swf_flusher s r pc W Ef) as Eo.
  destruct (fl_owner_run _ _ Eo) as (Hc & Hm & Hw).
  destruct H as [|Es|x Eb|x t0 t Eb|x t]; try destruct x; try (simpl in Eb);
  (constructor;
    [ split; [simpl; rewrite Eo; eauto | intros y Hy; simpl in Hy; rewrite Hm in Hy; discriminate Hy]
    | reflexivity
    | intros m [= <-]; apply cur_live; exact Hc
    | intros q y; unfold pend; simpl; rewrite Hc, Hw, Ef; simpl; try (symmetry; apply app_nil_r);
      destruct y; simpl; rewrite ?Eb, ?Nat.eqb_refl; destruct (r =? q); simpl; rewrite ?app_nil_r; reflexivity
    | intros j q y Hj; try reflexivity; apply Nat.eqb_neq in Hj; simpl; rewrite Nat.eqb_sym, Hj; reflexivity
    | auto ]).
Qed.

Fixpoint wf_sent (l : list msg) : Prop :=
  match l with [] => True | m :: older => done_cnt (mid m) older = 0 /\ wf_sent older end.

Lemma wf_sent_app : forall a b, wf_sent (a ++ b) -> (forall m, In m a -> done_cnt (mid m) b = 0) /\ wf_sent b.
Proof.
  induction a as [|m a IH]; simpl; intros b H.
  - split; auto. intros; contradiction.
  - destruct H as [H0 H]. destruct (IH b H) as [H1 H2]. split; auto.
    intros m' [->|Hin]; auto. rewrite done_cnt_app in H0. lia.
Qed.

Definition pend_at (ss : list session) (k : sid) (r : rid) (x : stream) : list tok :=
  match nth_error ss k with Some s => pend s r x | None => [] end.

Lemma pend_at_upd : forall l k s s' j r x, nth_error l k = Some s ->
  pend_at (upd k s' l) j r x = if Nat.eqb j k then pend s' r x else pend_at l j r x.
Proof. intros l k s s' j r x H. unfold pend_at. rewrite (nth_upd _ _ _ j s' _ H). destruct (Nat.eqb j k); reflexivity. Qed.

Lemma pend_at_new : forall l j r x, pend_at (l ++ [new_session]) j r x = pend_at l j r x.
Proof.
  intros l j r x. unfold pend_at. destruct (lt_dec j (length l)).
  - rewrite nth_error_app1 by auto. reflexivity.
  - rewrite nth_error_app2 by lia. replace (nth_error l j) with (@None session) by (symmetry; apply nth_error_None; lia).
    destruct (j - length l) as [|[|n']]; reflexivity.
Qed.

Record Inv (st : state) : Prop := {
  inv_tie : st_sent st = rev (st_chan st) ++ st_wire st;
  (* every request read is in exactly one place (the reader, a queue, a worker) or has been answered once *)
  inv_cnt : forall r, live_cnt r st + done_cnt r (st_sent st) = if r <? st_next st then 1 else 0;
  inv_swf : forall k s, nth_error (st_sess st) k = Some s -> swf s;
  inv_wfs : wf_sent (st_sent st);
  inv_out : forall k r x, ptoks k r x (st_printed st) = toks k r x (st_sent st) ++ pend_at (st_sess st) k r x;
  inv_env : forall k s d, nth_error (st_sess st) k = Some s -> In d (s_env s) -> In (k, d) (st_defs st)
}.

Lemma cnt_le1 : forall st r, Inv st -> live_cnt r st + done_cnt r (st_sent st) <= 1.
Proof. intros st r I. rewrite (inv_cnt st I). destruct (r <? st_next st); lia. Qed.

Lemma init_inv : Inv init.
Proof.
  constructor; simpl; auto; intros; destruct k; try discriminate; reflexivity.
Qed.

Lemma local_preserves : forall st k s s' e,
  Inv st -> nth_error (st_sess st) k = Some s -> local_ok k s s' e -> Inv (apply_eff st k s' e).
Proof.
  intros st k s s' e I Hk L.
  assert (Hlive : forall m, e = ESend m -> done_cnt (mid m) (st_sent st) = 0).
  { intros m ->. pose proof (lo_live _ _ _ _ L m eq_refl) as H1. pose proof (cnt_le1 st (mid m) I) as H2.
    pose proof (sum_ge (sess_cnt (mid m)) _ _ _ Hk). unfold live_cnt in H2. lia. }
  assert (Hcnt : forall r, eff_done r e + live_cnt r (apply_eff st k s' e) = live_cnt r st).
  { intros r. unfold live_cnt. pose proof (sum_upd (sess_cnt r) _ _ _ s' Hk) as H1.
    pose proof (lo_cnt _ _ _ _ L r). destruct e; simpl in *; lia. }
  pose proof (apply_eff_sess st k s' e) as Hss.
  constructor.
  - destruct e; simpl; try apply (inv_tie st I). rewrite (inv_tie st I), rev_app_distr. reflexivity.
  - intros r. specialize (Hcnt r). pose proof (inv_cnt st I r) as H1.
    assert (Hn : st_next (apply_eff st k s' e) = st_next st) by (destruct e; reflexivity).
    rewrite Hn, apply_eff_done. lia.
  - intros j sj Hj. rewrite Hss, (nth_upd _ _ _ j s' _ Hk) in Hj. destruct (Nat.eqb j k).
    + inversion Hj; subst. apply (lo_swf _ _ _ _ L).
    + apply (inv_swf st I _ _ Hj).
  - destruct e; simpl; try apply (inv_wfs st I). split; [apply Hlive; auto | apply (inv_wfs st I)].
  - intros j r x. rewrite apply_eff_toks, apply_eff_ptoks, Hss, (pend_at_upd _ _ _ _ _ _ _ Hk).
    destruct (Nat.eqb_spec j k) as [->|n].
    + pose proof (inv_out st I k r x) as Hi. unfold pend_at in Hi. rewrite Hk in Hi.
      rewrite Hi, <- !app_assoc. f_equal. symmetry. apply (lo_out _ _ _ _ L).
    + rewrite (lo_tag _ _ _ _ L j r x n), (eff_ptoks_other j k r x e n), !app_nil_r. apply (inv_out st I).
  - intros j sj d Hj Hd. rewrite Hss, (nth_upd _ _ _ j s' _ Hk) in Hj. destruct (Nat.eqb_spec j k).
    + inversion Hj; subst. destruct (lo_env _ _ _ _ L _ Hd) as [Hd'| ->].
      * pose proof (inv_env st I _ _ _ Hk Hd'). destruct e; simpl; auto.
      * simpl. auto.
    + pose proof (inv_env st I _ _ _ Hj Hd). destruct e; simpl; auto.
Qed.

Lemma rd_sess_preserves : forall st k s s' pc',
  Inv st -> nth_error (st_sess st) k = Some s ->
  s_w s' = s_w s -> s_fl s' = s_fl s -> s_out s' = s_out s -> s_err s' = s_err s -> s_env s' = s_env s ->
  (forall r, rd_cnt r pc' + sess_cnt r s' = rd_cnt r (st_rd st) + sess_cnt r s) ->
  Inv (rd_set st pc' (upd k s' (st_sess st))).
Proof.
  intros st k s s' pc' I Hk Ew Ef Eo Ee Eenv Hc.
  assert (Hbuf : forall x, buf s' x = buf s x) by (intros []; assumption).
  constructor; simpl.
  - apply (inv_tie st I).
  - intros r. pose proof (inv_cnt st I r) as H1. unfold live_cnt in *. simpl.
    pose proof (sum_upd (sess_cnt r) _ _ _ s' Hk). specialize (Hc r). lia.
  - intros j sj Hj. rewrite (nth_upd _ _ _ j s' _ Hk) in Hj. destruct (Nat.eqb j k).
    + inversion Hj; subst. pose proof (inv_swf st I _ _ Hk) as W. unfold swf in *.
      rewrite Ew, Ef. split; [apply W|]. intros x. rewrite Hbuf. apply W.
    + apply (inv_swf st I _ _ Hj).
  - apply (inv_wfs st I).
  - intros j r x. rewrite (pend_at_upd _ _ _ _ _ _ _ Hk). destruct (Nat.eqb_spec j k) as [->|n]; [|apply (inv_out st I)].
    pose proof (inv_out st I k r x) as Hi. unfold pend_at in Hi. rewrite Hk in Hi.
    unfold pend. rewrite Ew, Ef, Hbuf. exact Hi.
  - intros j sj d Hj Hd. rewrite (nth_upd _ _ _ j s' _ Hk) in Hj. destruct (Nat.eqb_spec j k).
    + inversion Hj; subst. rewrite Eenv in Hd. apply (inv_env st I _ _ _ Hk Hd).
    + apply (inv_env st I _ _ _ Hj Hd).
Qed.

Lemma rd_pc_preserves : forall st pc',
  Inv st -> (forall r, rd_cnt r pc' = rd_cnt r (st_rd st)) -> Inv (rd_set st pc' (st_sess st)).
Proof.
  intros st pc' I Hc. constructor; simpl; try apply I.
  intros r. pose proof (inv_cnt st I r) as H1. unfold live_cnt in *. simpl. rewrite Hc. exact H1.
Qed.

Lemma step_preserves : forall pv st l st', Inv st -> step pv st l = Some st' -> Inv st'.
Proof.
  intros pv st l st' I H. apply step_spec in H.
  destruct H as [o Erd|a st' H|k a s s' e Ek H|k a s r pc s' e Ek Ef H|m c Ec|k s Ek Ep|k s Ek Ep].
  - constructor; simpl; try apply I.
    intros r. pose proof (inv_cnt st I r) as Hi. unfold live_cnt in *. simpl. rewrite Erd in Hi. simpl in Hi.
    destruct (Nat.eqb_spec (st_next st) r).
    + subst. rewrite Nat.ltb_irrefl in Hi. destruct (Nat.ltb_spec (st_next st) (S (st_next st))); lia.
    + destruct (Nat.ltb_spec r (st_next st)); destruct (Nat.ltb_spec r (S (st_next st))); lia.
  - destruct H as [? ? ? ? Erd|? ? ? Erd|? ? ? Erd|? ? ? Erd|? ? ? Erd|? ? ? Erd|? ? ? Erd|? ? ? Erd|? Erd|? Erd|r x Erd];
      try (eapply rd_sess_preserves; eauto; intros; rewrite Erd; reflexivity);
      try (apply rd_pc_preserves; auto; intros; rewrite Erd; reflexivity).
    + (* enqueue *) eapply rd_sess_preserves; eauto. intros r0. rewrite Erd. unfold sess_cnt. simpl. rewrite cntq_app. simpl. lia.
    + (* clone *) constructor; simpl; try apply I.
      * intros r0. pose proof (inv_cnt st I r0) as Hi. unfold live_cnt in *. simpl. rewrite sum_app. simpl.
        rewrite Erd in Hi. simpl in Hi. change (sess_cnt r0 new_session) with 0. lia.
      * intros j sj Hj. apply nth_app_one in Hj. destruct Hj as [Hj|[_ ->]].
        -- apply (inv_swf st I _ _ Hj).
        -- split; [reflexivity | intros []; reflexivity].
      * intros j r0 x. rewrite pend_at_new. apply (inv_out st I).
      * intros j sj d Hj Hd. apply nth_app_one in Hj. destruct Hj as [Hj|[-> ->]].
        -- apply (inv_env st I _ _ _ Hj Hd).
        -- simpl in Hd. contradiction.
    + (* send *) assert (Hd : done_cnt r (st_sent st) = 0).
      { pose proof (cnt_le1 st r I) as Hj2. unfold live_cnt in Hj2. rewrite Erd in Hj2. simpl in Hj2.
        rewrite Nat.eqb_refl in Hj2. lia. }
      constructor; simpl; try apply I.
      * rewrite (inv_tie st I), rev_app_distr. reflexivity.
      * intros r0. pose proof (inv_cnt st I r0) as Hi. unfold live_cnt in *. simpl. rewrite Erd in Hi. simpl in Hi. lia.
      * split; [exact Hd | apply (inv_wfs st I)].
  - apply (local_preserves st k s); auto. apply (worker_local_ok pv k s a); auto. apply (inv_swf st I _ _ Ek).
  - apply (local_preserves st k s); auto. apply (flusher_local_ok k s r pc a); auto. apply (inv_swf st I _ _ Ek).
  - constructor; simpl; try apply I. rewrite (inv_tie st I), Ec. simpl. rewrite <- app_assoc. reflexivity.
  - exact I.
  - eapply rd_sess_preserves; eauto.
Qed.

Lemma exec_invariant : forall pv (P : state -> Prop),
  (forall st l st', P st -> step pv st l = Some st' -> P st') ->
  forall tr st st', P st -> exec pv st tr = Some st' -> P st'.
Proof.
  intros pv P HP. induction tr as [|l tr IH]; simpl; intros st st' I H.
  - injection H as <-. exact I.
  - destruct (step pv st l) eqn:E; [|discriminate H]. exact (IH _ _ (HP _ _ _ I E) H).
Qed.

Lemma exec_preserves : forall pv tr st st', Inv st -> exec pv st tr = Some st' -> Inv st'.
Proof. intros pv. apply exec_invariant. apply step_preserves. Qed.

Theorem reachable_inv : forall pv st, reachable pv st -> Inv st.
Proof. intros pv st [tr H]. eapply exec_preserves; [apply init_inv | eauto]. Qed.

Lemma one_done_sent : forall pv st r, reachable pv st -> done_cnt r (st_sent st) <= 1.
Proof. intros pv st r R. pose proof (cnt_le1 st r (reachable_inv pv st R)). lia. Qed.

Lemma one_done_wire : forall pv st r, reachable pv st -> done_cnt r (st_wire st) <= 1.
Proof.
  intros pv st r R. pose proof (one_done_sent pv st r R) as H.
  rewrite (inv_tie st (reachable_inv pv st R)), done_cnt_app in H. lia.
Qed.

Lemma sess_quiet_inv : forall s, sess_quiet s = true -> (s_w s = WIdle \/ s_w s = WExited) /\ s_queue s = [].
Proof. unfold sess_quiet. intros s. destruct (s_w s); try discriminate; destruct (s_queue s); try discriminate; auto. Qed.

Lemma quiescent_live0 : forall st r, quiescent st = true -> live_cnt r st = 0.
Proof.
  intros st r Q. unfold quiescent in Q. destruct (st_rd st) eqn:Erd; try discriminate.
  destruct (st_chan st); try discriminate. unfold live_cnt. rewrite Erd. simpl.
  apply sum_zero. intros s Hs. rewrite forallb_forall in Q.
  destruct (sess_quiet_inv s (Q s Hs)) as [[Ew|Ew] Eq]; unfold sess_cnt, cur_cnt; rewrite Ew, Eq; reflexivity.
Qed.

Lemma exactly_one_done_quiescent : forall pv st r, reachable pv st -> quiescent st = true ->
  r < st_next st -> done_cnt r (st_wire st) = 1.
Proof.
  intros pv st r R Q Hr. pose proof (reachable_inv pv st R) as I.
  pose proof (inv_cnt st I r) as H. rewrite (quiescent_live0 st r Q) in H.
  destruct (Nat.ltb_spec r (st_next st)); try lia.
  rewrite (inv_tie st I) in H. unfold quiescent in Q.
  destruct (st_rd st); try discriminate. destruct (st_chan st); try discriminate. simpl in H. exact H.
Qed.

Lemma no_done_unreceived : forall pv st r, reachable pv st -> st_next st <= r -> done_cnt r (st_sent st) = 0.
Proof.
  intros pv st r R Hr. pose proof (inv_cnt st (reachable_inv pv st R) r) as H.
  destruct (Nat.ltb_spec r (st_next st)); lia.
Qed.

Lemma done_last_sent : forall pv st a r s older, reachable pv st ->
  st_sent st = a ++ MDone r s :: older -> forall m, In m a -> mid m <> r.
Proof.
  intros pv st a r s older R E m Hm Heq. pose proof (inv_wfs st (reachable_inv pv st R)) as W.
  rewrite E in W. destruct (wf_sent_app a _ W) as [H _]. specialize (H m Hm).
  simpl in H. rewrite Heq, Nat.eqb_refl in H. lia.
Qed.

Lemma done_last_wire : forall pv st a r s older, reachable pv st ->
  st_wire st = a ++ MDone r s :: older -> forall m, In m a -> mid m <> r.
Proof.
  intros pv st a r s older R E m Hm. pose proof (inv_tie st (reachable_inv pv st R)) as S.
  rewrite E, app_assoc in S. eapply (done_last_sent pv st _ r s older R S). apply in_or_app. auto.
Qed.

Lemma output_before_done_sent : forall pv st pre r s older k x, reachable pv st ->
  st_sent st = pre ++ MDone r s :: older ->
  ptoks k r x (st_printed st) = toks k r x older.
Proof.
  intros pv st pre r s older k x R E. pose proof (reachable_inv pv st R) as I.
  assert (Hpre : toks k r x pre = []).
  { apply toks_no_id. intros m Hm. eapply done_last_sent; eauto. }
  assert (Hsent : toks k r x (st_sent st) = toks k r x older).
  { rewrite E, toks_app. simpl. rewrite Hpre, app_nil_r. reflexivity. }
  assert (Hlive : live_cnt r st = 0).
  { pose proof (cnt_le1 st r I) as H. assert (done_cnt r (st_sent st) >= 1).
    { rewrite E. apply in_done_cnt with (s := s). apply in_or_app. right. left. reflexivity. } lia. }
  rewrite (inv_out st I k r x), Hsent. unfold pend_at.
  destruct (nth_error (st_sess st) k) as [sk|] eqn:Ek; [|apply app_nil_r].
  assert (Hc : sess_cnt r sk = 0).
  { pose proof (sum_ge (sess_cnt r) _ _ _ Ek). unfold live_cnt in Hlive. lia. }
  unfold pend. unfold sess_cnt, cur_cnt in Hc. destruct (cur (s_w sk)); [|apply app_nil_r].
  destruct (Nat.eqb r0 r); [lia | apply app_nil_r].
Qed.

Lemma output_before_done_wire : forall pv st a r s older k x, reachable pv st ->
  st_wire st = a ++ MDone r s :: older ->
  ptoks k r x (st_printed st) = toks k r x older.
Proof.
  intros pv st a r s older k x R E. pose proof (inv_tie st (reachable_inv pv st R)) as S.
  rewrite E, app_assoc in S. eapply output_before_done_sent; eauto.
Qed.

Lemma worker_frame : forall pv st k a st' j, step pv st (LWorker k a) = Some st' -> j <> k ->
  nth_error (st_sess st') j = nth_error (st_sess st) j.
Proof.
  intros pv st k a st' j H Hj. apply step_spec in H. inversion H; subst.
  rewrite apply_eff_sess. apply upd_frame. exact Hj.
Qed.

Lemma flusher_frame : forall pv st k a st' j, step pv st (LFlusher k a) = Some st' -> j <> k ->
  nth_error (st_sess st') j = nth_error (st_sess st) j.
Proof.
  intros pv st k a st' j H Hj. apply step_spec in H. inversion H; subst.
  rewrite apply_eff_sess. apply upd_frame. exact Hj.
Qed.

Lemma defs_step : forall pv st l st' k d, step pv st l = Some st' -> In (k, d) (st_defs st') ->
  In (k, d) (st_defs st) \/ l = LWorker k (WADefine d).
Proof.
  intros pv st l st' k d H Hin. apply step_spec in H.
  destruct H as [| ? ? H| ? ? ? ? ? ? H| ? ? ? ? ? ? ? ? ? H| | |]; try destruct H; simpl in Hin; auto.
  destruct Hin as [[= -> ->]|]; auto.
Qed.

Lemma defs_provenance : forall pv tr st st' k d, exec pv st tr = Some st' -> In (k, d) (st_defs st') ->
  In (k, d) (st_defs st) \/ In (LWorker k (WADefine d)) tr.
Proof.
  induction tr as [|l tr IH]; simpl; intros st st' k d H Hin.
  - inversion H; subst; auto.
  - destruct (step pv st l) eqn:E; try discriminate. destruct (IH _ _ _ _ H Hin) as [H1|H1]; auto.
    destruct (defs_step _ _ _ _ _ _ E H1); auto.
Qed.

Lemma sees_only_own_defs : forall pv tr st k d st', exec pv init tr = Some st ->
  step pv st (LWorker k (WASees d)) = Some st' -> In (LWorker k (WADefine d)) tr.
Proof.
  intros pv tr st k d st' Hx Hs. pose proof (reachable_inv pv st (ex_intro _ tr Hx)) as I.
  apply step_spec in Hs. inversion Hs as [| |? ? s ? ? Ek Hw| | | |]; subst.
  assert (Em : memb d (s_env s) = true) by (inversion Hw; assumption).
  unfold memb in Em. apply existsb_exists in Em. destruct Em as [d' [Hin Heq]]. apply Nat.eqb_eq in Heq. subst d'.
  pose proof (inv_env st I k s d Ek Hin) as Hd.
  destruct (defs_provenance pv tr init st k d Hx Hd) as [H|H]; auto. simpl in H. contradiction.
Qed.

(* what one step does to session k; ScStore is a store by the reader or by SIGINT *)
Inductive sess_change (pv : ver) (st : state) (l : label) (st' : state) (k : sid) (s : session) : session -> Prop :=
| ScSame : sess_change pv st l st' k s s
| ScWorker a s' e : l = LWorker k a -> wstep pv k s a s' e -> st' = apply_eff st k s' e -> sess_change pv st l st' k s s'
| ScFlusher r pc a s' e : fstep k s r pc a s' e -> sess_change pv st l st' k s s'
| ScStore s' : s_w s' = s_w s -> s_flag s' = s_flag s \/ s_flag s' = true /\ is_flagset k st l = true ->
    sess_change pv st l st' k s s'.

Lemma step_session : forall pv st l st' k s, step pv st l = Some st' -> nth_error (st_sess st) k = Some s ->
  exists s', nth_error (st_sess st') k = Some s' /\ sess_change pv st l st' k s s'.
Proof.
  intros pv st l st' k s H Hk. apply step_spec in H.
  destruct H as [o Erd|a st' H|k0 a s0 s' e Ek0 H|k0 a s0 r pc s' e Ek0 Ef H|m c Ec|k0 s0 Ek0 Ep|k0 s0 Ek0 Ep].
  - exists s. split; [exact Hk | constructor].
  - destruct H as [r k0 kd s0 Erd Ek0 _|? ? ? _ _ _|r k0 s0 Erd Ek0 _ _|? ? ? _ _ _ _|r k0 s0 Erd _ Ek0 _|r k0 s0 Erd _ Ek0 _
                  |r k0 s0 Erd Ek0|r k0 s0 Erd Ek0|r _|r _|r x _];
      try (exists s; split; [first [exact Hk | apply nth_app_l; exact Hk] | constructor]);
      (apply (upd_at _ _ _ _ _ _ _ _ Ek0 Hk); [intros -> ->; apply ScStore; [reflexivity|] | constructor]);
      first [left; reflexivity | right; split; [reflexivity | simpl; rewrite Erd; apply Nat.eqb_refl]].
  - rewrite apply_eff_sess. apply (upd_at _ _ _ _ _ _ _ _ Ek0 Hk); [intros -> ->; eapply ScWorker; eauto | constructor].
  - rewrite apply_eff_sess. apply (upd_at _ _ _ _ _ _ _ _ Ek0 Hk); [intros -> ->; eapply ScFlusher; eauto | constructor].
  - exists s. split; [exact Hk | constructor].
  - exists s. split; [exact Hk | constructor].
  - apply (upd_at _ _ _ _ _ _ _ _ Ek0 Hk); [intros -> ->; apply ScStore; [reflexivity|] | constructor].
    right. split; [reflexivity | apply Nat.eqb_refl].
Qed.

Lemma flusher_same : forall k s r pc a s' e, fstep k s r pc a s' e ->
  s_flag s' = s_flag s /\ s_w s' = s_w s /\ s_closed s' = s_closed s.
Proof. intros k s r pc a s' e []; try destruct x; auto. Qed.

Lemma worker_closed_same : forall pv k s a s' e, worker_step pv k s a = Some (s', e) -> s_closed s' = s_closed s.
Proof. intros pv k s a s' e H. apply worker_step_spec in H. destruct H; try destruct x; reflexivity. Qed.

Lemma worker_flag : forall pv k s a s' e, wstep pv k s a s' e ->
  s_flag s' = s_flag s \/ (a = WAReflag /\ s_flag s' = true) \/
  ((a = WAReset \/ a = WACheck \/ a = WADone /\ s_pending s <= 1) /\ s_flag s' = false).
Proof.
  intros pv k s a s' e H. destruct H; try destruct x; simpl; auto 6.
  right. right. split; [right; right; split; [reflexivity | lia] | reflexivity].
Qed.

Lemma flag_change : forall pv st l st' k b, step pv st l = Some st' -> flag_of st k = Some b ->
  flag_of st' k = Some b \/ (is_flagset k st l = true /\ flag_of st' k = Some true) \/
  ((l = LWorker k WAReset \/ l = LWorker k WACheck \/
    l = LWorker k WADone /\ exists p, pending_of st k = Some p /\ p <= 1) /\ flag_of st' k = Some false).
Proof.
  intros pv st l st' k b H F. unfold flag_of, pending_of in *.
  destruct (nth_error (st_sess st) k) as [s|] eqn:Ek; [|discriminate F].
  destruct (step_session pv st l st' k s H Ek) as [s' [Ek' C]]. rewrite Ek'. injection F as <-.
  destruct C as [|a s' e -> C _|r pc a s' e C|s' _ [->|[-> C]]]; auto.
  - destruct (worker_flag _ _ _ _ _ _ C) as [->|[[-> ->]|[Ha ->]]]; auto.
    + right. left. simpl. rewrite Nat.eqb_refl. auto.
    + right. right. split; auto. destruct Ha as [->|[->|[-> P]]]; eauto 6.
  - apply flusher_same in C. destruct C as [-> _]. auto.
Qed.

Lemma flag_stays_true : forall pv st l st' k, step pv st l = Some st' -> flag_of st k = Some true ->
  l <> LWorker k WAReset -> l <> LWorker k WACheck -> l <> LWorker k WADone -> flag_of st' k = Some true.
Proof.
  intros pv st l st' k H F N1 N2 N3.
  destruct (flag_change pv st l st' k true H F) as [E|[[_ E]|[[E|[E|[E _]]] _]]]; auto; contradiction.
Qed.

Lemma flag_stays_false : forall pv st l st' k, step pv st l = Some st' -> flag_of st k = Some false ->
  is_flagset k st l = false -> flag_of st' k = Some false.
Proof.
  intros pv st l st' k H F N.
  destruct (flag_change pv st l st' k false H F) as [E|[[E _]|[_ E]]]; auto; congruence.
Qed.

Lemma flag_true_until : forall pv tr st st' k, exec pv st tr = Some st' -> flag_of st k = Some true ->
  (forall l, In l tr -> l <> LWorker k WAReset /\ l <> LWorker k WACheck /\ l <> LWorker k WADone) ->
  flag_of st' k = Some true.
Proof.
  induction tr as [|l tr IH]; simpl; intros st st' k H F N.
  - inversion H; subst; auto.
  - destruct (step pv st l) eqn:E; try discriminate. eapply IH; eauto.
    destruct (N l (or_introl eq_refl)) as [N1 [N2 N3]]. eapply flag_stays_true; eauto.
Qed.

Lemma check_outcome : forall pv st k r b, flag_of st k = Some b -> wpc_of st k = Some (WRun r) ->
  exists st', step pv st (LWorker k WACheck) = Some st' /\
    wpc_of st' k = Some (if b then WStop r RInterrupted else WRun r) /\ flag_of st' k = Some false.
Proof.
  unfold flag_of, wpc_of. intros pv st k r b F W. simpl.
  destruct (nth_error (st_sess st) k) as [s|] eqn:Ek; [|discriminate F].
  injection F as F. injection W as W. unfold worker_step. rewrite W, F.
  pose proof (nth_lt _ _ _ _ Ek) as Hlt.
  destruct b; eexists; (split; [reflexivity|]); simpl; rewrite nth_upd_same by exact Hlt; simpl; rewrite ?W, ?F; auto.
Qed.

Lemma interrupt_running_lemma : forall pv st tr st' k r,
  flag_of st k = Some true -> exec pv st tr = Some st' ->
  (forall l, In l tr -> l <> LWorker k WAReset /\ l <> LWorker k WACheck /\ l <> LWorker k WADone) ->
  wpc_of st' k = Some (WRun r) ->
  exists st'', step pv st' (LWorker k WACheck) = Some st'' /\
               wpc_of st'' k = Some (WStop r RInterrupted) /\ flag_of st'' k = Some false.
Proof. intros pv st tr st' k r F H N W. exact (check_outcome pv st' k r true (flag_true_until pv tr st st' k H F N) W). Qed.

Definition stat_of_pc (pc : wpc) : option (rid * status) :=
  match pc with
  | WStop r res | WJoin r res | WDrain r res _ | WDrainSend r res _ _ => Some (r, status_of res)
  | WSend r _ s => Some (r, s)
  | _ => None
  end.

Lemma worker_stat : forall pv k s a s' e r sx, wstep pv k s a s' e ->
  stat_of_pc (s_w s) = Some (r, sx) ->
  stat_of_pc (s_w s') = Some (r, sx) \/ e = ESend (MDone r sx).
Proof.
  intros pv k s a s' e r sx H St. destruct s.
  destruct H; try destruct x; simpl in *; subst; try discriminate St; auto.
  injection St as <- <-. auto.
Qed.

Lemma stat_live : forall s r sx, stat_of_pc (s_w s) = Some (r, sx) -> sess_cnt r s >= 1.
Proof.
  intros s r sx. unfold sess_cnt, cur_cnt. destruct (s_w s); simpl; intros E; try discriminate E;
    injection E as <- _; rewrite Nat.eqb_refl; lia.
Qed.

Lemma sent_grows_step : forall pv st l st', step pv st l = Some st' ->
  st_sent st' = st_sent st \/ exists m, st_sent st' = m :: st_sent st.
Proof.
  intros pv st l st' H. apply step_spec in H.
  destruct H as [| ? ? H| ? ? ? ? [] | ? ? ? ? ? ? [] | | |]; try destruct H; simpl; eauto.
Qed.

Definition carried (k : sid) (r : rid) (sx : status) (st : state) : Prop :=
  (exists s, nth_error (st_sess st) k = Some s /\ stat_of_pc (s_w s) = Some (r, sx)) \/ In (MDone r sx) (st_sent st).

Lemma carried_step : forall pv k r sx st l st', carried k r sx st -> step pv st l = Some st' -> carried k r sx st'.
Proof.
  intros pv k r sx st l st' [(s & Ek & St)|Hin] H.
  - destruct (step_session pv st l st' k s H Ek) as [s1 [Ek1 C]].
    assert (Hpc : s_w s1 = s_w s -> carried k r sx st') by (intros E; left; exists s1; split; congruence).
    destruct C as [|a s1 e _ C ->|r0 pc a s1 e C|s1 C _]; auto.
    + destruct (worker_stat pv k s a s1 e r sx C St) as [Hc| ->]; [left; eauto | right; simpl; auto].
    + apply Hpc. apply (flusher_same _ _ _ _ _ _ _ C).
  - right. destruct (sent_grows_step pv st l st' H) as [->|[m ->]]; simpl; auto.
Qed.

Lemma status_carried : forall pv tr st st' k s r sx s', Inv st ->
  nth_error (st_sess st) k = Some s -> stat_of_pc (s_w s) = Some (r, sx) ->
  exec pv st tr = Some st' -> In (MDone r s') (st_sent st') -> s' = sx.
Proof.
  intros pv tr st st' k s r sx s' I Ek St H Hin.
  pose proof (cnt_le1 st' r (exec_preserves pv tr st st' I H)) as Hle.
  destruct (exec_invariant pv (carried k r sx) (carried_step pv k r sx) tr st st') as [(s1 & Ek1 & St1)|Hc]; eauto.
  - left. eauto.
  - exfalso. apply in_done_cnt in Hin. pose proof (stat_live s1 r sx St1). pose proof (sum_ge (sess_cnt r) _ _ _ Ek1).
    unfold live_cnt in Hle. lia.
  - eapply done_unique; eauto. lia.
Qed.

Lemma interrupted_status_lemma : forall pv st tr st' k r s', reachable pv st ->
  wpc_of st k = Some (WStop r RInterrupted) ->
  exec pv st tr = Some st' -> In (MDone r s') (st_sent st') -> s' = StInterrupted.
Proof.
  intros pv st tr st' k r s' R W. unfold wpc_of in W.
  destruct (nth_error (st_sess st) k) as [s|] eqn:Ek; [|discriminate W]. injection W as W.
  apply (status_carried pv tr st st' k s); [apply (reachable_inv pv st R) | exact Ek | rewrite W; reflexivity].
Qed.

Fixpoint no_flagset (pv : ver) (k : sid) (st : state) (tr : list label) : bool :=
  match tr with
  | [] => true
  | l :: tr' => negb (is_flagset k st l) &&
                match step pv st l with Some st1 => no_flagset pv k st1 tr' | None => true end
  end.

Lemma flag_false_until : forall pv tr st st' k, exec pv st tr = Some st' -> flag_of st k = Some false ->
  no_flagset pv k st tr = true -> flag_of st' k = Some false.
Proof.
  induction tr as [|l tr IH]; simpl; intros st st' k H F N.
  - inversion H; subst; auto.
  - destruct (step pv st l) eqn:E; try discriminate. apply andb_prop in N. destruct N as [N1 N2].
    apply negb_true_iff in N1. eapply IH; eauto. eapply flag_stays_false; eauto.
Qed.

Definition rd_mid_close (k : sid) (pc : rpc) : bool :=
  match pc with RCloseFlag _ k' => Nat.eqb k' k | _ => false end.
Definition must_flag (pc : wpc) : bool :=
  match pc with WReady _ _ | WWarned _ | WRun _ => true | _ => false end.

(* b: the reader is between the two stores of close_session for this session;
   must_flag: an eval past the worker's re-raise and not yet stopped *)
Record sess_fix2 (b : bool) (s : session) : Prop := {
  f2_pending : s_pending s = length (s_queue s) + busy (s_w s);
  f2_idle : s_pending s = 0 -> s_closed s = false -> s_flag s = false;
  f2_mid : b = true -> s_closed s = true;
  f2_closed : b = false -> s_closed s = true -> must_flag (s_w s) = true -> s_flag s = true
}.

Definition fix2I (st : state) : Prop :=
  forall k s, nth_error (st_sess st) k = Some s -> sess_fix2 (rd_mid_close k (st_rd st)) s.

Lemma worker_fix2 : forall k s a s' e b, wstep VFix2 k s a s' e -> sess_fix2 b s -> sess_fix2 b s'.
Proof.
  intros k s a s' e b H [P I M C]. destruct s.
  destruct H; simpl in *; subst; simpl in *; try discriminate; try destruct x;
    try match goal with |- context [if ?b then _ else _] => destruct b end; constructor; simpl; auto; (lia || discriminate).
Qed.

Lemma flusher_fix2 : forall k s r pc a s' e b, fstep k s r pc a s' e -> sess_fix2 b s -> sess_fix2 b s'.
Proof. intros k s r pc a s' e b [] [P I M C]; try destruct x; constructor; auto. Qed.

Lemma fix2I_upd : forall st st' k0 s0 s0', fix2I st -> nth_error (st_sess st) k0 = Some s0 ->
  st_sess st' = upd k0 s0' (st_sess st) ->
  (forall k, k <> k0 -> rd_mid_close k (st_rd st') = rd_mid_close k (st_rd st)) ->
  sess_fix2 (rd_mid_close k0 (st_rd st')) s0' -> fix2I st'.
Proof.
  intros st st' k0 s0 s0' I Ek0 Es Hrd H0 k s Ek. rewrite Es, (nth_upd _ _ _ k _ _ Ek0) in Ek.
  destruct (Nat.eqb_spec k k0) as [->|N].
  - injection Ek as <-. exact H0.
  - rewrite (Hrd k N). apply I. exact Ek.
Qed.

Lemma fix2I_same : forall st st', fix2I st -> st_sess st' = st_sess st ->
  (forall k, rd_mid_close k (st_rd st') = rd_mid_close k (st_rd st)) -> fix2I st'.
Proof. intros st st' I Es Hrd k s Ek. rewrite Hrd. apply I. rewrite <- Es. exact Ek. Qed.

Lemma fix2_enq : forall s x, sess_fix2 false s ->
  sess_fix2 false (set_pending (set_queue s (s_queue s ++ [x])) (S (s_pending s))).
Proof. intros s x [P I M C]. constructor; simpl; auto; [rewrite app_length; simpl; lia | discriminate]. Qed.

(* a store of `true`: by interrupt or SIGINT when something is pending, or as close's second store *)
Lemma fix2_flag : forall b b' s, sess_fix2 b s -> (s_pending s = 0 -> b = true) -> (b' = true -> b = true) ->
  sess_fix2 b' (set_flag s true).
Proof.
  intros b b' s [P I M C] Hp Hb. constructor; simpl; auto.
  intros H0 Hc. rewrite (M (Hp H0)) in Hc. discriminate Hc.
Qed.

Lemma fix2_closed : forall s, sess_fix2 false s -> sess_fix2 true (set_closed s true).
Proof. intros s [P I M C]. constructor; simpl; auto; discriminate. Qed.

Lemma fix2I_step : forall st l st', fix2I st -> step VFix2 st l = Some st' -> fix2I st'.
Proof.
  intros st l st' I H. apply step_spec in H.
  destruct H as [o Erd|a st' H|k a s s' e Ek H|k a s r pc s' e Ek _ H|m c Ec|k s Ek Ep|k s Ek Ep].
  - apply (fix2I_same st); auto. intros k. simpl. rewrite Erd. reflexivity.
  - destruct H as [r k kd s Erd Ek|? ? ? Erd|r k s Erd Ek _ Ep|? ? ? Erd|? ? ? ? Ec|r k s Erd _ Ek
                  |r k s Erd Ek|r k s Erd Ek|r Erd|? Erd|? ? Erd];
      try (apply (fix2I_same st); auto; intros; simpl; rewrite Erd; reflexivity);
      try discriminate Ec;
      (* the steps that store into session k: what remains is the invariant of the new record *)
      try (pose proof (I k s Ek) as F; rewrite Erd in F; simpl in F;
           eapply (fix2I_upd st _ k s _ I Ek);
           [ reflexivity
           | intros j Hj; simpl; rewrite Erd; simpl; rewrite ?(proj2 (Nat.eqb_neq k j)) by congruence; reflexivity
           | simpl; rewrite ?Nat.eqb_refl in * ]).
    + (* enqueue *) apply fix2_enq. exact F.
    + (* interrupt *) apply (fix2_flag false); auto. intros H0. rewrite H0 in Ep. discriminate Ep.
    + (* close: `closed` *) apply fix2_closed. exact F.
    + (* close: the flag *) apply (fix2_flag true); auto.
    + (* close: remove *) destruct F. constructor; auto.
    + (* clone *) intros j sj Ej. simpl in Ej. apply nth_app_one in Ej. destruct Ej as [Ej|[_ ->]].
      * pose proof (I j sj Ej) as Hj. rewrite Erd in Hj. exact Hj.
      * constructor; simpl; auto; discriminate.
  - eapply (fix2I_upd st _ k s _ I Ek); [apply apply_eff_sess | |]; rewrite apply_eff_rd; auto.
    apply (worker_fix2 k s a _ e); auto.
  - eapply (fix2I_upd st _ k s _ I Ek); [apply apply_eff_sess | |]; rewrite apply_eff_rd; auto.
    apply (flusher_fix2 k s r pc a _ e); auto.
  - apply (fix2I_same st); auto.
  - exact I.
  - eapply (fix2I_upd st _ k s _ I Ek); [reflexivity|auto|]. simpl.
    apply (fix2_flag (rd_mid_close k (st_rd st))); auto. intros H0. rewrite H0 in Ep. discriminate Ep.
Qed.

Lemma fix2I_reachable : forall st, reachable VFix2 st -> fix2I st.
Proof.
  intros st [tr H]. apply (exec_invariant VFix2 fix2I fix2I_step tr init st); [|exact H]. intros [] ? [=].
Qed.

Lemma close_stops_running_lemma : forall st k s r, reachable VFix2 st ->
  nth_error (st_sess st) k = Some s -> s_closed s = true -> rd_mid_close k (st_rd st) = false ->
  s_w s = WRun r ->
  exists st', step VFix2 st (LWorker k WACheck) = Some st' /\ wpc_of st' k = Some (WStop r RInterrupted).
Proof.
  intros st k s r R Ek Hc Hm Hw. pose proof (f2_closed _ _ (fix2I_reachable st R k s Ek) Hm Hc) as F.
  rewrite Hw in F. destruct (check_outcome VFix2 st k r true) as (st' & Hs & Ho & _).
  - unfold flag_of. rewrite Ek, (F eq_refl). reflexivity.
  - unfold wpc_of. rewrite Ek, Hw. reflexivity.
  - eauto.
Qed.

(* close's two stores establish the hypotheses of close_stops_running_lemma *)
Lemma close_sets_both : forall st st1 st2 r k, st_rd st = RGot r (OClose k) ->
  step VFix2 st (LReader RAClosed) = Some st1 -> step VFix2 st1 (LReader RAFlag) = Some st2 ->
  exists s, nth_error (st_sess st2) k = Some s /\ s_closed s = true /\ s_flag s = true /\
            rd_mid_close k (st_rd st2) = false.
Proof.
  intros st st1 st2 r k Erd H1 H2. simpl in H1. unfold reader_step in H1. rewrite Erd in H1. simpl in H1.
  destruct (open_sess st k) eqn:Eo; try discriminate. apply open_sess_inv in Eo as [Eo _]. inversion H1; subst; clear H1.
  simpl in H2. unfold reader_step in H2. simpl in H2.
  pose proof (nth_lt _ _ _ _ Eo) as Hlt. rewrite nth_upd_same in H2 by auto. inversion H2; subst; clear H2. simpl.
  eexists. rewrite nth_upd_same by (rewrite upd_length; auto). split; [reflexivity|]. simpl. auto.
Qed.

(* the flag survives every step that is not a check of session k, a WAReset of k (a step
   only where `counts pv` is false), or a finish_request of k that leaves the session idle *)
Definition keeps_flag (k : sid) (st : state) (l : label) : bool :=
  match l with
  | LWorker k' WACheck | LWorker k' WAReset => negb (Nat.eqb k' k)
  | LWorker k' WADone =>
      negb (Nat.eqb k' k) || match pending_of st k with Some p => 2 <=? p | None => true end
  | _ => true
  end.

Fixpoint holds_flag (pv : ver) (k : sid) (st : state) (tr : list label) : bool :=
  match tr with
  | [] => true
  | l :: tr' => keeps_flag k st l &&
                match step pv st l with Some st1 => holds_flag pv k st1 tr' | None => true end
  end.

Lemma flag_kept : forall pv st l st' k, step pv st l = Some st' -> flag_of st k = Some true ->
  keeps_flag k st l = true -> flag_of st' k = Some true.
Proof.
  intros pv st l st' k H F K.
  destruct (flag_change pv st l st' k true H F) as [E|[[_ E]|[[->|[->|[-> (p & Ep & P)]]] _]]]; auto;
    unfold keeps_flag in K; rewrite Nat.eqb_refl in K; try discriminate K.
  rewrite Ep in K. apply Nat.leb_le in K. lia.
Qed.

Lemma flag_held : forall pv tr st st' k, exec pv st tr = Some st' -> flag_of st k = Some true ->
  holds_flag pv k st tr = true -> flag_of st' k = Some true.
Proof.
  induction tr as [|l tr IH]; simpl; intros st st' k H F K.
  - inversion H; subst; auto.
  - destruct (step pv st l) eqn:E; try discriminate. apply andb_prop in K. destruct K as [K1 K2].
    eapply IH; eauto. eapply flag_kept; eauto.
Qed.

Lemma interrupt_accepted_lemma : forall st r k s, reachable VFix2 st ->
  st_rd st = RGot r (OInterrupt k) -> open_sess st k = Some s ->
  (s_queue s <> [] \/ busy (s_w s) = 1) ->
  step VFix2 st (LReader RAIgnore) = None /\
  exists st', step VFix2 st (LReader RAFlag) = Some st' /\ flag_of st' k = Some true /\
              st_rd st' = RSend r StDone.
Proof.
  intros st r k s R Erd Eo Hq. destruct (open_sess_inv _ _ _ Eo) as [Ek _].
  pose proof (f2_pending _ _ (fix2I_reachable st R k s Ek)) as P.
  assert (Hp : (s_pending s =? 0) = false).
  { apply Nat.eqb_neq. destruct Hq as [Hq|Hq]; [destruct (s_queue s); [congruence|simpl in P; lia] | lia]. }
  simpl. unfold reader_step. rewrite Erd, Eo. cbn [counts andb]. rewrite Hp. split; auto.
  eexists. split; [reflexivity|]. unfold flag_of. simpl. rewrite nth_upd_same by (eapply nth_lt; eauto). auto.
Qed.

Lemma interrupt_reaches_lemma : forall pv st tr st' k r,
  flag_of st k = Some true -> exec pv st tr = Some st' -> holds_flag pv k st tr = true ->
  wpc_of st' k = Some (WRun r) ->
  exists st'', step pv st' (LWorker k WACheck) = Some st'' /\
               wpc_of st'' k = Some (WStop r RInterrupted) /\ flag_of st'' k = Some false.
Proof. intros pv st tr st' k r F H K W. exact (check_outcome pv st' k r true (flag_held pv tr st st' k H F K) W). Qed.

Lemma done_with_queue_keeps : forall st k s, reachable VFix2 st -> nth_error (st_sess st) k = Some s ->
  s_w s = WFinishing -> s_queue s <> [] -> 2 <= s_pending s.
Proof.
  intros st k s R Ek Hw Hq. pose proof (f2_pending _ _ (fix2I_reachable st R k s Ek)) as P. rewrite Hw in P. simpl in P.
  destruct (s_queue s); [congruence | simpl in P; lia].
Qed.

Lemma idle_interrupt_ignored_lemma : forall st r k s, reachable VFix2 st ->
  st_rd st = RGot r (OInterrupt k) -> open_sess st k = Some s ->
  s_queue s = [] -> busy (s_w s) = 0 ->
  step VFix2 st (LReader RAFlag) = None /\
  (s_closed s = false -> s_flag s = false) /\
  exists st', step VFix2 st (LReader RAIgnore) = Some st' /\ st_sess st' = st_sess st /\
              st_rd st' = RSend r StDone.
Proof.
  intros st r k s R Erd Eo Hq Hb. destruct (open_sess_inv _ _ _ Eo) as [Ek _].
  destruct (fix2I_reachable st R k s Ek) as [P I _ _]. rewrite Hq, Hb in P. simpl in P.
  simpl. unfold reader_step. rewrite Erd, Eo. cbn [counts andb]. rewrite P. simpl.
  repeat split; auto. eexists. split; [reflexivity|]. auto.
Qed.

(* this is what makes a late or idle interrupt harmless *)
Lemma idle_flag_down : forall st k s, reachable VFix2 st -> nth_error (st_sess st) k = Some s ->
  s_queue s = [] -> busy (s_w s) = 0 -> s_closed s = false -> s_flag s = false.
Proof.
  intros st k s R Ek Hq Hb Hc. destruct (fix2I_reachable st R k s Ek) as [P I _ _].
  apply I; auto. rewrite P, Hq, Hb. reflexivity.
Qed.

Lemma check_passes_lemma : forall pv st tr st' k r, flag_of st k = Some false ->
  exec pv st tr = Some st' -> no_flagset pv k st tr = true -> wpc_of st' k = Some (WRun r) ->
  exists st'', step pv st' (LWorker k WACheck) = Some st'' /\ wpc_of st'' k = Some (WRun r).
Proof.
  intros pv st tr st' k r F H N W.
  destruct (check_outcome pv st' k r false (flag_false_until pv tr st st' k H F N) W) as (st'' & Hs & Ho & _). eauto.
Qed.

(* what the worker of session k does between taking a request and spawning the flusher *)
Definition pickup (pv : ver) (k : sid) : list label :=
  match pv with
  | VAsFound => [LWorker k WADequeue; LWorker k WAReset]
  | VFix1 => [LWorker k WADequeue; LWorker k WAReset; LWorker k WALoadClosed]
  | VFix2 => [LWorker k WADequeue; LWorker k WALoadClosed]
  end.
(* ... and after its last response *)
Definition wrapup (pv : ver) (k : sid) : list label :=
  match pv with VFix2 => [LWorker k WADone] | _ => [] end.

(* one session; request 1 = eval that prints "7" on stdout and "8","9" on
   stderr; the flusher takes "7" and "8" mid-eval, the final drain takes "9" *)
Definition demo_trace : list label :=
  [ LRecv OClone; LReader RANew; LReader RASend; LWriter;
    LRecv (OSess 0 KEval); LReader RAEnq ] ++ pickup VFix2 0 ++
  [ LWorker 0 (WABegin BSpawn);
    LWorker 0 WACheck; LWorker 0 (WAPrint SOut 7); LWorker 0 (WAPrint SErr 8);
    LFlusher 0 FATimeout; LFlusher 0 FATake;
    LFlusher 0 FASend; LFlusher 0 FATake; LWorker 0 (WAPrint SErr 9); LFlusher 0 FASend;
    LWorker 0 WACheck; LWorker 0 (WAFinish (ROk 1)); LWorker 0 WAStopFl; LFlusher 0 FAStop; LWorker 0 WAJoin;
    LWorker 0 WATake; LWorker 0 WATake; LWorker 0 WASend; LWorker 0 WASend; LWorker 0 WASend ] ++ wrapup VFix2 0 ++
  [ LWriter; LWriter; LWriter; LWriter; LWriter ].

Definition demo_state : state :=
  match exec VFix2 init demo_trace with Some st => st | None => init end.

Lemma demo_ok : exec VFix2 init demo_trace = Some demo_state /\ quiescent demo_state = true /\
  st_wire demo_state = [MDone 1 StDone; MText 0 1; MOut 0 1 SErr [9]; MOut 0 1 SErr [8]; MOut 0 1 SOut [7]; MDone 0 StDone] /\
  ptoks 0 1 SErr (st_printed demo_state) = [8; 9] /\ ptoks 0 1 SOut (st_printed demo_state) = [7].
Proof. vm_compute. repeat split. Qed.

Lemma demo_reachable : reachable VFix2 demo_state.
Proof. exists demo_trace. apply demo_ok. Qed.

(* eval started, interrupt handled while it runs: interrupted at the next check (all variants) *)
Definition interrupt_trace (pv : ver) : list label :=
  [ LRecv OClone; LReader RANew; LReader RASend;
    LRecv (OSess 0 KEval); LReader RAEnq ] ++ pickup pv 0 ++
  [ LWorker 0 (WABegin BSpawn); LWorker 0 WACheck;
    LRecv (OInterrupt 0); LReader RAFlag; LReader RASend ].

Lemma interrupt_demo : forall pv,
  match exec pv init (interrupt_trace pv) with
  | Some st => flag_of st 0 = Some true /\ wpc_of st 0 = Some (WRun 1) /\
               match step pv st (LWorker 0 WACheck) with
               | Some st' => wpc_of st' 0 = Some (WStop 1 RInterrupted)
               | None => False
               end
  | None => False
  end.
Proof. destruct pv; vm_compute; repeat split. Qed.

(* THE LOST INTERRUPT of the old protocol (as found and fix-1): the interrupt is
   handled after the eval was queued but before the worker's reset; the reset
   erases it and the eval's checks see `false`. *)
Definition early_interrupt_trace (pv : ver) : list label :=
  [ LRecv OClone; LReader RANew; LReader RASend;
    LRecv (OSess 0 KEval); LReader RAEnq;
    LRecv (OInterrupt 0); LReader RAFlag; LReader RASend ] ++ pickup pv 0 ++
  [ LWorker 0 (WABegin BSpawn) ].

Lemma interrupt_lost_old_protocol : forall pv, counts pv = false ->
  match exec pv init (early_interrupt_trace pv) with
  | Some st => wpc_of st 0 = Some (WRun 1) /\ flag_of st 0 = Some false /\
               In (MDone 2 StDone) (st_sent st) /\          (* the interrupt itself was acknowledged *)
               match step pv st (LWorker 0 WACheck) with
               | Some st' => wpc_of st' 0 = Some (WRun 1)    (* the eval runs on *)
               | None => False
               end
  | None => False
  end.
Proof. intros [] H; [vm_compute; auto .. | discriminate H]. Qed.

(* the same client schedule with fix-2: the flag is still up when the eval starts *)
Lemma early_interrupt_stops_eval_fix2 :
  match exec VFix2 init (early_interrupt_trace VFix2) with
  | Some st => wpc_of st 0 = Some (WRun 1) /\ flag_of st 0 = Some true /\
               match step VFix2 st (LWorker 0 WACheck) with
               | Some st' => wpc_of st' 0 = Some (WStop 1 RInterrupted)
               | None => False
               end
  | None => False
  end.
Proof. vm_compute; auto. Qed.

(* fix-2: interrupt while idle, then an eval: the interrupt stores nothing (RAFlag
   is not even enabled), the eval's check passes *)
Definition idle_interrupt_trace : list label :=
  [ LRecv OClone; LReader RANew; LReader RASend;
    LRecv (OInterrupt 0); LReader RAIgnore; LReader RASend;
    LRecv (OSess 0 KEval); LReader RAEnq ] ++ pickup VFix2 0 ++ [ LWorker 0 (WABegin BSpawn) ].

Lemma idle_interrupt_demo :
  match exec VFix2 init idle_interrupt_trace with
  | Some st => wpc_of st 0 = Some (WRun 2) /\ flag_of st 0 = Some false
  | None => False
  end /\
  exec VFix2 init [ LRecv OClone; LReader RANew; LReader RASend; LRecv (OInterrupt 0); LReader RAFlag ] = None.
Proof. vm_compute; auto. Qed.

(* fix-2: a LATE interrupt (after the eval's last check) is accepted, never
   observed, and cleared by finish_request: the next eval starts with the flag down *)
Definition late_interrupt_trace : list label :=
  [ LRecv OClone; LReader RANew; LReader RASend;
    LRecv (OSess 0 KEval); LReader RAEnq ] ++ pickup VFix2 0 ++
  [ LWorker 0 (WABegin BSpawn); LWorker 0 WACheck; LWorker 0 (WAFinish (ROk 1));
    LRecv (OInterrupt 0); LReader RAFlag; LReader RASend;
    LWorker 0 WAStopFl; LFlusher 0 FAStop; LWorker 0 WAJoin; LWorker 0 WATake; LWorker 0 WATake;
    LWorker 0 WASend; LWorker 0 WASend; LWorker 0 WADone;
    LRecv (OSess 0 KEval); LReader RAEnq ] ++ pickup VFix2 0 ++ [ LWorker 0 (WABegin BSpawn) ].

Lemma late_interrupt_demo :
  match exec VFix2 init late_interrupt_trace with
  | Some st => wpc_of st 0 = Some (WRun 3) /\ flag_of st 0 = Some false /\ In (MDone 1 StDone) (st_sent st)
  | None => False
  end.
Proof. vm_compute; auto. Qed.

(* THE close DEFECT (code as found): close handled before the worker's
   reset.  The session is closed (acknowledged `session-closed`), the eval then
   starts, its flag is false, it is not stopped, and no later request can reach
   it (the session is no longer in the table). *)
Definition close_race_trace : list label :=
  [ LRecv OClone; LReader RANew; LReader RASend;
    LRecv (OSess 0 KEval); LReader RAEnq;
    LRecv (OClose 0); LReader RAFlag; LReader RADrop; LReader RASend ] ++ pickup VAsFound 0 ++
  [ LWorker 0 (WABegin BSpawn); LWorker 0 WACheck ].

Lemma close_stops_running_refuted_asis :
  exists st, exec VAsFound init close_race_trace = Some st /\
    In (MDone 2 StSessionClosed) (st_sent st) /\
    open_sess st 0 = None /\
    wpc_of st 0 = Some (WRun 1) /\ flag_of st 0 = Some false /\
    (forall st', step VAsFound st (LWorker 0 WACheck) = Some st' -> wpc_of st' 0 = Some (WRun 1)).
Proof.
  eexists. split; [vm_compute; reflexivity|]. repeat split; try (vm_compute; auto; fail).
  intros st' H. vm_compute in H. inversion H; subst. reflexivity.
Qed.

(* the same schedule on the current code: the worker raises the flag, the first check stops the eval *)
Definition close_race_trace_fixed : list label :=
  [ LRecv OClone; LReader RANew; LReader RASend;
    LRecv (OSess 0 KEval); LReader RAEnq;
    LRecv (OClose 0); LReader RAClosed; LReader RAFlag; LReader RADrop; LReader RASend ] ++ pickup VFix2 0 ++
  [ LWorker 0 WAReflag; LWorker 0 (WABegin BSpawn); LWorker 0 WACheck ].

Lemma close_race_fixed :
  exists st, exec VFix2 init close_race_trace_fixed = Some st /\ wpc_of st 0 = Some (WStop 1 RInterrupted).
Proof. eexists. split; vm_compute; reflexivity. Qed.

(* a closed-session state satisfying the hypotheses of close_stops_running_lemma *)
Lemma close_hyp_satisfiable :
  exists st s, reachable VFix2 st /\ nth_error (st_sess st) 0 = Some s /\ s_closed s = true /\
    rd_mid_close 0 (st_rd st) = false /\ s_w s = WRun 1.
Proof.
  eexists _, _. split.
  - exists ([ LRecv OClone; LReader RANew; LReader RASend; LRecv (OSess 0 KEval); LReader RAEnq ] ++ pickup VFix2 0 ++
            [ LWorker 0 (WABegin BSpawn); LRecv (OClose 0); LReader RAClosed; LReader RAFlag ]).
    vm_compute. reflexivity.
  - vm_compute. repeat split.
Qed.

(* an interrupt-accepted state satisfying the hypotheses of interrupt_accepted_lemma:
   the eval is queued, the worker has not dequeued it *)
Lemma accept_hyp_satisfiable :
  exists st s, reachable VFix2 st /\ st_rd st = RGot 2 (OInterrupt 0) /\ open_sess st 0 = Some s /\
    s_queue s <> [] /\ s_w s = WIdle.
Proof.
  eexists _, _. split.
  - exists [ LRecv OClone; LReader RANew; LReader RASend; LRecv (OSess 0 KEval); LReader RAEnq; LRecv (OInterrupt 0) ].
    vm_compute. reflexivity.
  - vm_compute. repeat split. discriminate.
Qed.

Lemma quiescent_stuck : forall pv st l, reachable pv st -> quiescent st = true -> internal l = true ->
  enabled pv st l = false.
Proof.
  intros pv st l R Q Il. unfold enabled. destruct (step pv st l) eqn:H; [exfalso | reflexivity].
  unfold quiescent in Q. destruct (st_rd st) eqn:Erd; try discriminate. destruct (st_chan st) eqn:Ec; try discriminate.
  rewrite forallb_forall in Q. apply step_spec in H.
  destruct H as [o _|a st' H|k a s s' e Ek H|k a s r pc s' e Ek Ef H|m c Ec'|k s _ _|k s _ _]; try discriminate.
  - destruct H; congruence.
  - destruct (sess_quiet_inv s (Q s (nth_error_In _ _ Ek))) as [Ew Eq]. destruct H; try discriminate Il; destruct Ew; congruence.
  - destruct (sess_quiet_inv s (Q s (nth_error_In _ _ Ek))) as [Ew _].
    pose proof (swf_flusher s r pc (inv_swf st (reachable_inv pv st R) k s Ek) Ef) as Eo.
    destruct Ew as [Ew|Ew]; rewrite Ew in Eo; discriminate Eo.
  - congruence.
Qed.
