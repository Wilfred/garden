(* General theorems about import loading (Imports.v), for ARBITRARY projects: any number of files, any import
   graph (cycles, self-imports, repeated and missing imports), with and without `as`, on the repaired loader
   shape [shape_fixed]. The proof rests on an invariant of the loader state (Inv), on what a later state keeps
   of an earlier one (Keeps), and on what each item of a file asks of the environment once the file is loaded
   (Achieved; Done for a whole file); Reach bundles them for two states of one run. They are carried through
   the loop one iteration at a time (ImportsProps.load_item), by induction on the item list, and through the
   nested loads by induction on the fuel (LoadSpec). Loaded is what is left of them for the environment that
   load_root returns, and all that the theorems at the end use. *)
From Coq Require Import List Bool NArith Arith Lia.
Import ListNotations.
From Garden Require Import Imports ImportsProps.

Lemma lookup_nat_filter_ne : forall A k k' (l : list (nat * A)), k <> k' ->
  lookup_nat k (filter (fun p => negb (Nat.eqb k' (fst p))) l) = lookup_nat k l.
Proof.
  intros A k k' l Hne. induction l as [|[a v] l IH]; cbn; auto.
  destruct (Nat.eqb_spec k' a) as [<-|]; cbn; [|now rewrite IH].
  now destruct (Nat.eqb_spec k k').
Qed.

Lemma lookup_nat_insert : forall A k k' (v : A) l,
  lookup_nat k (insert_nat k' v l) = if Nat.eqb k k' then Some v else lookup_nat k l.
Proof.
  intros. unfold insert_nat. cbn [lookup_nat fst]. destruct (Nat.eqb_spec k k'); auto.
  now apply lookup_nat_filter_ne.
Qed.

Lemma lookup_N_filter_ne : forall A k k' (l : list (N * A)), k <> k' ->
  lookup_N k (filter (fun p => negb (N.eqb k' (fst p))) l) = lookup_N k l.
Proof.
  intros A k k' l Hne. induction l as [|[a v] l IH]; cbn; auto.
  destruct (N.eqb_spec k' a) as [<-|]; cbn; [|now rewrite IH].
  now destruct (N.eqb_spec k k').
Qed.

Lemma lookup_N_insert : forall A k k' (v : A) l,
  lookup_N k (insert_N k' v l) = if N.eqb k k' then Some v else lookup_N k l.
Proof.
  intros. unfold insert_N. cbn [lookup_N fst]. destruct (N.eqb_spec k k'); auto.
  now apply lookup_N_filter_ne.
Qed.

Lemma In_insert_N : forall A (p : N * A) k v l, In p (insert_N k v l) -> p = (k, v) \/ In p l.
Proof. intros A p k v l [H|H]; [left; auto|right]. apply filter_In in H. tauto. Qed.

Lemma lookup_N_In : forall A k (l : list (N * A)) v, lookup_N k l = Some v -> In (k, v) l.
Proof.
  intros A k l v. induction l as [|[a w] l IH]; cbn; [discriminate|].
  destruct (N.eqb_spec k a) as [->|]; [intros [= ->]|]; auto.
Qed.

Lemma In_lookup_N : forall A k (v : A) l, In (k, v) l -> lookup_N k l <> None.
Proof.
  intros A k v l. induction l as [|[a w] l IH]; cbn; [tauto|].
  intros [H|H]; [inversion H; subst; rewrite N.eqb_refl; discriminate|].
  destruct (N.eqb k a); [discriminate|auto].
Qed.

Lemma mem_N_true : forall x l, mem_N x l = true <-> In x l.
Proof.
  intros. unfold mem_N. rewrite existsb_exists. split.
  - intros (y & Hy & E). apply N.eqb_eq in E. subst; auto.
  - intros H. exists x. split; auto. apply N.eqb_refl.
Qed.

Lemma mem_N_remove : forall x n l, mem_N x (remove_N n l) = mem_N x l && negb (N.eqb n x).
Proof.
  intros. apply eq_true_iff_eq. rewrite andb_true_iff, !mem_N_true. apply filter_In.
Qed.

Lemma mem_nat_true : forall x l, mem_nat x l = true <-> In x l.
Proof.
  intros. unfold mem_nat. rewrite existsb_exists. split.
  - intros (y & Hy & E). apply Nat.eqb_eq in E. subst; auto.
  - intros H. exists x. split; auto. apply Nat.eqb_refl.
Qed.

Lemma mem_nat_remove : forall x t l, mem_nat x (remove_nat t l) = mem_nat x l && negb (Nat.eqb t x).
Proof.
  intros. apply eq_true_iff_eq. rewrite andb_true_iff, !mem_nat_true. apply filter_In.
Qed.

(* All that the proofs look at in an environment, per file g. ns_of answers fresh_ns for a file without a
   namespace, so only hasns tells whether there is one. *)
Definition exp (e : Env) (g : nat) (x : N) : bool := mem_N x (ns_exported (ns_of e g)).
Definition val (e : Env) (g : nat) (x : N) : option Val := lookup_N x (ns_values (ns_of e g)).
Definition vals (e : Env) (g : nat) : list (N * Val) := ns_values (ns_of e g).
Definition hasns (e : Env) (g : nat) : bool := match get_ns e g with Some _ => true | None => false end.

Lemma get_ns_set_ns : forall e f ns g, get_ns (set_ns e f ns) g = if Nat.eqb g f then Some ns else get_ns e g.
Proof. intros. apply lookup_nat_insert. Qed.

Lemma ns_of_set_ns : forall e f ns g, ns_of (set_ns e f ns) g = if Nat.eqb g f then ns else ns_of e g.
Proof. intros. unfold ns_of. rewrite get_ns_set_ns. destruct (Nat.eqb g f); reflexivity. Qed.

Lemma hasns_set_ns : forall e f ns g, hasns (set_ns e f ns) g = Nat.eqb g f || hasns e g.
Proof. intros. unfold hasns. rewrite get_ns_set_ns. destruct (Nat.eqb g f); reflexivity. Qed.

Lemma ns_of_get_or_create : forall e t g, ns_of (get_or_create_ns e t) g = ns_of e g.
Proof.
  intros. unfold get_or_create_ns. destruct (get_ns e t) eqn:E; auto.
  rewrite ns_of_set_ns. destruct (Nat.eqb_spec g t) as [->|]; auto. unfold ns_of. now rewrite E.
Qed.

Lemma hasns_get_or_create : forall e t g, hasns (get_or_create_ns e t) g = Nat.eqb g t || hasns e g.
Proof.
  intros. unfold get_or_create_ns. destruct (get_ns e t) eqn:E; [|apply hasns_set_ns].
  destruct (Nat.eqb_spec g t) as [->|]; auto. unfold hasns. now rewrite E.
Qed.

(* the exported names of a namespace after `x` is marked *)
Lemma mem_N_mark : forall x vis l y,
  mem_N y (match vis with Public => x :: remove_N x l | Private => remove_N x l end) =
  match vis with Public => N.eqb y x || mem_N y l | Private => mem_N y l && negb (N.eqb x y) end.
Proof.
  intros. destruct vis; [|apply mem_N_remove].
  change (mem_N y (x :: ?l)) with (N.eqb y x || mem_N y l). rewrite mem_N_remove.
  destruct (N.eqb_spec y x) as [->|]; auto. cbn. rewrite (proj2 (N.eqb_neq x y)) by auto. apply andb_true_r.
Qed.

Lemma exp_get_or_create : forall e t g x, exp (get_or_create_ns e t) g x = exp e g x.
Proof. intros. unfold exp. now rewrite ns_of_get_or_create. Qed.
Lemma val_get_or_create : forall e t g x, val (get_or_create_ns e t) g x = val e g x.
Proof. intros. unfold val. now rewrite ns_of_get_or_create. Qed.
Lemma vals_get_or_create : forall e t g, vals (get_or_create_ns e t) g = vals e g.
Proof. intros. unfold vals. now rewrite ns_of_get_or_create. Qed.

(* insert_imported_namespace, one entry of the imported namespace *)
Definition copy_step (ex : list N) (b : bool) (acc : list (N * Val)) (p : N * Val) : list (N * Val) :=
  if mem_N (fst p) ex
  then (if b then match lookup_N (fst p) acc with Some _ => acc | None => insert_N (fst p) (snd p) acc end
        else insert_N (fst p) (snd p) acc)
  else acc.

Lemma copy_exported_fold : forall cur imp b,
  copy_exported cur imp b = fold_left (copy_step (ns_exported imp) b) (ns_values imp) cur.
Proof. reflexivity. Qed.

Lemma copy_step_mono : forall ex b acc p x, lookup_N x acc <> None -> lookup_N x (copy_step ex b acc p) <> None.
Proof.
  intros ex b acc [k v] x H. unfold copy_step. cbn [fst snd].
  destruct (mem_N k ex); auto. destruct b; [destruct (lookup_N k acc); auto|];
    (rewrite lookup_N_insert; destruct (N.eqb x k); [discriminate|auto]).
Qed.

Lemma copy_fold_mono : forall ex b l acc x, lookup_N x acc <> None -> lookup_N x (fold_left (copy_step ex b) l acc) <> None.
Proof. intros ex b l. induction l as [|p l IH]; intros acc x H; cbn; auto. apply IH. now apply copy_step_mono. Qed.

Lemma copy_fold_complete : forall ex b l acc x, mem_N x ex = true -> lookup_N x l <> None ->
  lookup_N x (fold_left (copy_step ex b) l acc) <> None.
Proof.
  intros ex b l. induction l as [|[k v] l IH]; intros acc x Hm; cbn [fold_left lookup_N]; [congruence|].
  destruct (N.eqb_spec x k) as [->|]; [intros _|now apply IH].
  apply copy_fold_mono. unfold copy_step. cbn [fst snd]. rewrite Hm.
  destruct b; [destruct (lookup_N k acc) eqn:E; [congruence|]|]; rewrite lookup_N_insert, N.eqb_refl; discriminate.
Qed.

Lemma copy_fold_In : forall ex b l acc p, In p (fold_left (copy_step ex b) l acc) ->
  In p acc \/ (In p l /\ mem_N (fst p) ex = true).
Proof.
  intros ex b l. induction l as [|[k v] l IH]; intros acc p H; cbn in *; auto.
  destruct (IH _ _ H) as [H1|[H1 H2]]; [|now auto].
  unfold copy_step in H1. cbn [fst snd] in H1. destruct (mem_N k ex) eqn:Ek; auto.
  assert (G : In p (insert_N k v acc) -> In p acc \/ ((k, v) = p \/ In p l) /\ mem_N (fst p) ex = true)
    by (intros X; apply In_insert_N in X as [->|X]; auto).
  destruct b; auto. destruct (lookup_N k acc); auto.
Qed.

(* what insert_imported (b = false) and finish_pending (b = true) do to the namespace of [cur] *)
Definition import_copy (e : Env) (cur target : nat) (b : bool) : Env :=
  let c := ns_of e cur in
  set_ns e cur {| ns_values := copy_exported (ns_values c) (ns_of e target) b; ns_exported := ns_exported c |}.

Lemma insert_imported_fixed : forall e alias cur target,
  insert_imported shape_fixed e alias cur target =
  Ok (match alias with
      | Some a => set_value e cur a (VNs target)
      | None => if Nat.eqb cur target then e else import_copy e cur target false
      end).
Proof. intros. unfold insert_imported. destruct alias; auto. cbn. destruct (Nat.eqb cur target); reflexivity. Qed.

Definition declares_private_value (items : File) (x : N) : bool :=
  existsb (fun i => match i with
                    | IFun nm Private => N.eqb nm x
                    | IEnum _ Private vs => mem_N x vs
                    | _ => false end) items.

Section Gen.
Variable proj : Project.
Variable root : nat.

Definition pubp (g : nat) (x : N) : bool :=
  match nth_error proj g with Some items => declares_public_value shape_fixed items x | None => false end.
Definition privp (g : nat) (x : N) : bool :=
  match nth_error proj g with Some items => declares_private_value items x | None => false end.
(* no name is marked both public and private in one file *)
Definition consistent_marks : Prop := forall g x, pubp g x = true -> privp g x = false.

Definition declared (g : nat) (x : N) : Prop :=
  exists items, nth_error proj g = Some items /\
    ((exists vis, In (IFun x vis) items) \/ (exists t vis vs, In (IEnum t vis vs) items /\ In x vs)).
Definition import_alias (g t : nat) (a : N) : Prop := exists items, nth_error proj g = Some items /\ In (IImport t (Some a)) items.
Definition import_plain (g t : nat) : Prop := exists items, nth_error proj g = Some items /\ In (IImport t None) items.
Definition allowed (f : nat) (x : N) : Prop :=
  In x prelude_names \/ declared f x \/ (exists t, import_alias f t x) \/ (exists g, import_plain f g /\ pubp g x = true).

Hypothesis Hcons : consistent_marks.

Definition declared_as (f : nat) (x : N) (vis : Vis) : Prop :=
  exists items, nth_error proj f = Some items /\
    (In (IFun x vis) items \/ exists t vs, In (IEnum t vis vs) items /\ In x vs).

Lemma declared_as_marks : forall f x vis, declared_as f x vis ->
  declared f x /\ match vis with Public => pubp f x = true | Private => privp f x = true end.
Proof.
  intros f x vis (items & Hn & H). split.
  - exists items. split; auto. destruct H as [H|(t & vs & H & Hx)]; [left; eauto | right; eauto 6].
  - unfold pubp, privp. rewrite Hn.
    destruct vis; apply existsb_exists; destruct H as [H|(t & vs & H & Hx)];
      (eexists; split; [eassumption|]; cbn; first [apply N.eqb_refl | now apply mem_N_true]).
Qed.

Lemma pubp_declared_as : forall f x, pubp f x = true -> declared_as f x Public.
Proof.
  intros f x H. unfold pubp in H. destruct (nth_error proj f) as [items|] eqn:E; [|discriminate].
  exists items. split; auto. apply existsb_exists in H as (i & Hin & Hi).
  destruct i as [nm [|]|t [|] vs| | |]; try discriminate.
  - apply N.eqb_eq in Hi. subst. now left.
  - apply mem_N_true in Hi. right. eauto.
Qed.

Lemma pubp_range : forall g x, pubp g x = true -> g < length proj.
Proof. intros g x H. unfold pubp in H. destruct (nth_error proj g) eqn:E; [|discriminate]. apply nth_error_Some. congruence. Qed.

Record Inv (st : LoadState) : Prop := {
  inv_sound : forall g x, exp (st_env st) g x = true -> pubp g x = true;
  (* beside the root, the files with a namespace are the existing files in paths_seen *)
  inv_ns_seen : forall g, hasns (st_env st) g = true -> g = root \/ (g < length proj /\ mem_nat g (st_remaining st) = false);
  inv_seen_ns : forall g, g < length proj -> mem_nat g (st_remaining st) = false -> hasns (st_env st) g = true;
  inv_vals : forall f k w, In (k, w) (vals (st_env st) f) ->
             allowed f k /\ forall g, w = VNs g -> hasns (st_env st) g = true;
  inv_prel : forall f p, In p prelude_names -> val (st_env st) f p <> None;
  inv_pend : forall c t, In (c, t) (st_pending st) -> import_plain c t /\ hasns (st_env st) c = true /\ hasns (st_env st) t = true
}.

(* what never gets lost while loading goes on; st_remaining is compared where it matters, in reach_done *)
Record Keeps (a b : LoadState) : Prop := {
  keeps_ns : forall g, hasns (st_env a) g = true -> hasns (st_env b) g = true;
  keeps_exp : forall g x, exp (st_env a) g x = true -> exp (st_env b) g x = true;
  keeps_val : forall g x, val (st_env a) g x <> None -> val (st_env b) g x <> None;
  keeps_pend : forall p, In p (st_pending a) -> In p (st_pending b)
}.

Lemma Keeps_refl : forall a, Keeps a a.
Proof. intros; constructor; auto. Qed.
Lemma Keeps_trans : forall a b c, Keeps a b -> Keeps b c -> Keeps a c.
Proof. intros a b c [] []; constructor; auto. Qed.

Definition bound (f : nat) (e : Env) (x : N) (vis : Vis) : Prop :=
  val e f x <> None /\ (vis = Public -> exp e f x = true).

(* what item i of file f asks of the environment, once f is loaded. An unqualified import of a file that was
   still being loaded may wait in the pending list. *)
Definition Achieved (f : nat) (e : Env) (pend : list (nat * nat)) (i : Item) : Prop :=
  match i with
  | IFun x vis => bound f e x vis
  | IEnum _ vis vs => forall x, In x vs -> bound f e x vis
  | IImport t (Some a) => val e f a <> None
  | IImport t None => In (f, t) pend \/ forall x, pubp t x = true -> val e f x <> None
  | IStruct _ _ | IMethod _ _ _ => True
  end.

Definition Done (g : nat) (e : Env) (pend : list (nat * nat)) : Prop :=
  forall items i, nth_error proj g = Some items -> In i items -> Achieved g e pend i.

Lemma bound_kept : forall f x vis a b, Keeps a b -> bound f (st_env a) x vis -> bound f (st_env b) x vis.
Proof. intros f x vis a b [] [A B]. split; auto. Qed.

Lemma Achieved_kept : forall f i a b, Keeps a b ->
  Achieved f (st_env a) (st_pending a) i -> Achieved f (st_env b) (st_pending b) i.
Proof.
  intros f i a b K. destruct i as [x vis|t vis vs| | |t [al|]]; cbn; auto.
  - now apply bound_kept.
  - intros H x Hx. eapply bound_kept; eauto.
  - apply (keeps_val _ _ K).
  - intros [H|H]; [left; now apply (keeps_pend _ _ K) | right; intros; apply (keeps_val _ _ K); auto].
Qed.

Lemma Done_pub : forall g e pend, Done g e pend ->
  forall x, pubp g x = true -> exp e g x = true /\ val e g x <> None.
Proof.
  intros g e pend D x Hx. destruct (pubp_declared_as _ _ Hx) as (items & Hn & [H|(t & vs & H & Hv)]).
  - destruct (D items _ Hn H) as [A B]. auto.
  - destruct (D items _ Hn H x Hv) as [A B]. auto.
Qed.

(* what a later state b of one run has over a: every file that left st_remaining in between is done. Not
   every later state has it (see enter_step). *)
Record Reach (a b : LoadState) : Prop := {
  reach_inv : Inv b;
  reach_keeps : Keeps a b;
  reach_done : forall g, mem_nat g (st_remaining a) = true -> mem_nat g (st_remaining b) = false ->
                         Done g (st_env b) (st_pending b)
}.

Lemma Reach_same : forall a b, Inv b -> Keeps a b -> st_remaining b = st_remaining a -> Reach a b.
Proof. intros a b IV K Hr. split; [exact IV | exact K |]. intros g H1 H2. rewrite Hr in H2. congruence. Qed.

Lemma Reach_ns : forall a b g, Reach a b -> hasns (st_env a) g = true -> hasns (st_env b) g = true.
Proof. intros a b g R. apply (keeps_ns _ _ (reach_keeps _ _ R)). Qed.

Lemma Reach_refl : forall a, Inv a -> Reach a a.
Proof. intros. apply Reach_same; auto using Keeps_refl. Qed.

Lemma Reach_trans : forall a b c, Reach a b -> Reach b c -> Reach a c.
Proof.
  intros a b c [Ib Kab Nab] [Ic Kbc Nbc]. split; [exact Ic | exact (Keeps_trans _ _ _ Kab Kbc) |].
  intros g Ha Hc. destruct (mem_nat g (st_remaining b)) eqn:E; [now apply Nbc|].
  intros items i Hn Hi. eapply Achieved_kept; [exact Kbc|]. exact (Nab g Ha E items i Hn Hi).
Qed.

(* A change of the environment that creates no namespace: the invariant follows from what it does to the
   observations. *)
Lemma env_step : forall st st',
  Inv st -> st_remaining st' = st_remaining st -> st_pending st' = st_pending st ->
  (forall g, hasns (st_env st') g = hasns (st_env st) g) ->
  (forall g x, exp (st_env st') g x = true -> pubp g x = true) ->
  (forall g x, exp (st_env st) g x = true -> exp (st_env st') g x = true) ->
  (forall g x, val (st_env st) g x <> None -> val (st_env st') g x <> None) ->
  (forall g k w, In (k, w) (vals (st_env st') g) ->
     allowed g k /\ forall h, w = VNs h -> hasns (st_env st) h = true) ->
  Reach st st'.
Proof.
  intros st st' [sound ns_seen seen_ns vs prel pend] Hr Hp Hh He He' Hv Hvs. apply Reach_same; auto.
  - constructor.
    + exact He.
    + intros g. rewrite Hh, Hr. apply ns_seen.
    + intros g. rewrite Hh, Hr. apply seen_ns.
    + intros f k w H. destruct (Hvs _ _ _ H) as [A B]. split; auto. intros g Hg. rewrite Hh. auto.
    + auto.
    + intros c t. rewrite Hp, !Hh. apply pend.
  - constructor; auto.
    + intros g. now rewrite Hh.
    + intros q. now rewrite Hp.
Qed.

Lemma table_step : forall st st', Inv st ->
  e_ns (st_env st') = e_ns (st_env st) -> st_remaining st' = st_remaining st -> st_pending st' = st_pending st ->
  Reach st st'.
Proof.
  intros st st' IV He Hr Hp.
  assert (Hn : forall g, ns_of (st_env st') g = ns_of (st_env st) g) by (intros; unfold ns_of, get_ns; now rewrite He).
  apply env_step; auto; unfold hasns, get_ns, exp, val, vals; intros *; rewrite ?Hn, ?He; auto.
  - apply (inv_sound _ IV).
  - apply (inv_vals _ IV).
Qed.

Lemma ns_step : forall st st' f ns',
  Inv st -> hasns (st_env st) f = true ->
  st_env st' = set_ns (st_env st) f ns' -> st_remaining st' = st_remaining st -> st_pending st' = st_pending st ->
  (forall x, mem_N x (ns_exported ns') = true -> pubp f x = true) ->
  (forall x, exp (st_env st) f x = true -> mem_N x (ns_exported ns') = true) ->
  (forall x, val (st_env st) f x <> None -> lookup_N x (ns_values ns') <> None) ->
  (forall k w, In (k, w) (ns_values ns') -> allowed f k /\ forall h, w = VNs h -> hasns (st_env st) h = true) ->
  Reach st st'.
Proof.
  intros st st' f ns' IV Hf He Hr Hp Ha Hb Hc Hd.
  apply env_step; auto; rewrite He; intros *; unfold exp, val, vals; rewrite ?ns_of_set_ns, ?hasns_set_ns;
    (destruct (Nat.eqb_spec g f) as [->|]; auto).
  - apply (inv_sound _ IV).
  - apply (inv_vals _ IV).
Qed.

Lemma value_step : forall st st' f a w,
  Inv st -> hasns (st_env st) f = true -> allowed f a ->
  (forall g, w = VNs g -> hasns (st_env st) g = true) ->
  st_env st' = set_value (st_env st) f a w -> st_remaining st' = st_remaining st -> st_pending st' = st_pending st ->
  Reach st st' /\ val (st_env st') f a <> None.
Proof.
  intros st st' f a w IV Hf Hal Hw He Hr Hp. split.
  - apply (ns_step st st' f _ IV Hf He Hr Hp); cbn [ns_values ns_exported]; auto.
    + exact (inv_sound _ IV f).
    + intros x H. rewrite lookup_N_insert. destruct (N.eqb x a); [discriminate | exact H].
    + intros k v H. apply In_insert_N in H as [[= -> ->]|H]; [auto | exact (inv_vals _ IV _ _ _ H)].
  - rewrite He. unfold val, set_value. rewrite ns_of_set_ns, Nat.eqb_refl. cbn [ns_values].
    rewrite lookup_N_insert, N.eqb_refl. discriminate.
Qed.

Lemma export_step : forall st st' f x vis,
  Inv st -> hasns (st_env st) f = true ->
  match vis with Public => pubp f x = true | Private => privp f x = true end ->
  st_env st' = set_exported (st_env st) f x vis -> st_remaining st' = st_remaining st -> st_pending st' = st_pending st ->
  Reach st st' /\ (vis = Public -> exp (st_env st') f x = true).
Proof.
  intros st st' f x vis IV Hf Hm He Hr Hp. split.
  - apply (ns_step st st' f _ IV Hf He Hr Hp); cbn [ns_values ns_exported]; auto; try (intros y; rewrite mem_N_mark).
    + destruct vis; intros H.
      * apply orb_true_iff in H as [H|H]; [apply N.eqb_eq in H; now subst | now apply (inv_sound _ IV)].
      * apply andb_true_iff in H as [H _]. now apply (inv_sound _ IV).
    + intros H. fold (exp (st_env st) f y). rewrite H. destruct vis; [apply orb_true_r|].
      destruct (N.eqb_spec x y) as [<-|]; auto.
      (* a private mark on an exported name: the name is public too *)
      rewrite (Hcons _ _ (inv_sound _ IV _ _ H)) in Hm. discriminate.
    + apply (inv_vals _ IV).
  - intros ->. rewrite He. unfold exp, set_exported. rewrite ns_of_set_ns, Nat.eqb_refl.
    cbn [ns_exported mem_N existsb]. now rewrite N.eqb_refl.
Qed.

Lemma decl_step : forall st f x vis w,
  Inv st -> hasns (st_env st) f = true -> declared_as f x vis -> (forall g, w <> VNs g) ->
  let st' := with_env st (set_exported (set_value (st_env st) f x w) f x vis) in
  Reach st st' /\ bound f (st_env st') x vis.
Proof.
  intros st f x vis w IV Hf Hd Hw st'. destruct (declared_as_marks _ _ _ Hd) as [Hdecl Hm].
  destruct (value_step st (with_env st (set_value (st_env st) f x w)) f x w IV Hf) as [R1 V1]; try reflexivity.
  { right. now left. }
  { intros g ->. now elim (Hw g). }
  destruct (export_step _ st' f x vis (reach_inv _ _ R1) (Reach_ns _ _ _ R1 Hf) Hm) as [R2 E2]; try reflexivity.
  split; [eapply Reach_trans; eauto|]. split; [apply (keeps_val _ _ (reach_keeps _ _ R2)); exact V1 | exact E2].
Qed.

Lemma import_step : forall st st' f target b,
  Inv st -> hasns (st_env st) f = true -> import_plain f target ->
  st_env st' = import_copy (st_env st) f target b -> st_remaining st' = st_remaining st -> st_pending st' = st_pending st ->
  Reach st st' /\
  (forall x, exp (st_env st) target x = true -> val (st_env st) target x <> None -> val (st_env st') f x <> None).
Proof.
  intros st st' f target b IV Hf Himp He Hr Hp. unfold import_copy in He. rewrite copy_exported_fold in He. split.
  - apply (ns_step st st' f _ IV Hf He Hr Hp); cbn [ns_values ns_exported]; auto.
    + exact (inv_sound _ IV f).
    + intros x. apply copy_fold_mono.
    + intros k w H. apply copy_fold_In in H as [H|[H Hx]]; [exact (inv_vals _ IV _ _ _ H)|].
      split; [|exact (proj2 (inv_vals _ IV _ _ _ H))].
      right. right. right. exists target. split; auto. exact (inv_sound _ IV _ _ Hx).
  - intros x H1 H2. rewrite He. unfold val. rewrite ns_of_set_ns, Nat.eqb_refl. now apply copy_fold_complete.
Qed.

Lemma pend_step : forall st st' f target,
  Inv st -> import_plain f target -> hasns (st_env st) f = true -> hasns (st_env st) target = true ->
  st_env st' = st_env st -> st_remaining st' = st_remaining st -> st_pending st' = (f, target) :: st_pending st ->
  Reach st st'.
Proof.
  intros st st' f target [sound ns_seen seen_ns vs prel pend] Himp Hf Ht He Hr Hp. apply Reach_same; auto.
  - constructor; rewrite ?He, ?Hr; auto.
    intros c t. rewrite Hp. intros [[= <- <-]|H]; auto.
  - constructor; rewrite ?He, ?Hp; auto. intros q H. now right.
Qed.

(* Entering [target] takes it out of st_remaining before it is done, so Reach st (enter st target) fails; Reach
   holds again of every state reached from there in which [target] is done. *)
Lemma enter_step : forall st target,
  Inv st -> target < length proj -> mem_nat target (st_remaining st) = true ->
  Inv (enter st target) /\ hasns (st_env (enter st target)) target = true /\
  forall st', Reach (enter st target) st' -> Done target (st_env st') (st_pending st') -> Reach st st'.
Proof.
  intros st target [sound ns_seen seen_ns vs prel pend] Hlt Hmem.
  assert (K : Keeps st (enter st target)).
  { constructor; cbn [enter st_env st_pending]; intros *;
      rewrite ?hasns_get_or_create, ?exp_get_or_create, ?val_get_or_create; auto.
    intros H. rewrite H. apply orb_true_r. }
  split; [|split].
  - constructor; cbn [enter st_env st_remaining st_pending]; intros *;
      rewrite ?hasns_get_or_create, ?exp_get_or_create, ?val_get_or_create, ?vals_get_or_create, ?mem_nat_remove; auto.
    + destruct (Nat.eqb_spec g target) as [->|Hne]; cbn.
      * intros _. right. split; auto. rewrite Nat.eqb_refl. apply andb_false_r.
      * intros H. destruct (ns_seen _ H) as [?|[? H2]]; auto. right. split; auto. now rewrite H2.
    + intros Hg. destruct (Nat.eqb_spec g target) as [->|Hne]; cbn; auto.
      rewrite (proj2 (Nat.eqb_neq target g)) by auto. rewrite andb_true_r. auto.
    + intros H. destruct (vs _ _ _ H) as [A B]. split; auto. intros g Hg. rewrite hasns_get_or_create, (B g Hg). apply orb_true_r.
    + intros H. destruct (pend c t H) as (A & B & C). rewrite B, C, !orb_true_r. auto.
  - cbn [enter st_env]. now rewrite hasns_get_or_create, Nat.eqb_refl.
  - intros st' [IV' K' N'] D. split; [exact IV' | eapply Keeps_trans; eauto |].
    intros g G1 G2. destruct (Nat.eq_dec g target) as [->|Hne]; auto. apply N'; auto.
    cbn [enter st_remaining]. rewrite mem_nat_remove, G1. destruct (Nat.eqb_spec target g); [congruence|reflexivity].
Qed.

(* a loop over a list that changes only the environment; s0 is the state before the loop *)
Lemma fold_steps : forall A (step : Env -> A -> Env) (post : LoadState -> A -> Prop) s0,
  (forall a s s', Keeps s s' -> post s a -> post s' a) ->
  forall l, (forall a s, In a l -> Inv s -> Keeps s0 s ->
             let s' := with_env s (step (st_env s) a) in Reach s s' /\ post s' a) ->
  forall s, Inv s -> Keeps s0 s ->
  let s' := with_env s (fold_left step l (st_env s)) in Reach s s' /\ forall a, In a l -> post s' a.
Proof.
  intros A step post s0 Hpost. induction l as [|a l IH]; intros Hstep s IV K; cbn [fold_left].
  - split; [now apply table_step | intros a []].
  - destruct (Hstep a s (or_introl eq_refl) IV K) as [R1 P1].
    destruct (IH (fun b s Hb => Hstep b s (or_intror Hb)) _ (reach_inv _ _ R1)
                 (Keeps_trans _ _ _ K (reach_keeps _ _ R1))) as [R2 P2].
    split; [eapply Reach_trans; eauto|].
    intros b [<-|Hb]; [exact (Hpost _ _ _ (reach_keeps _ _ R2) P1) | auto].
Qed.

Definition variant_step (f : nat) (vis : Vis) (e : Env) (v : N) : Env :=
  set_exported (set_value e f v (VVariant f v)) f v vis.

Lemma add_variants_fixed : forall f e items,
  add_variants shape_fixed f e items =
  fold_left (fun e i => match i with IEnum _ vis variants => fold_left (variant_step f vis) variants e | _ => e end) items e.
Proof. reflexivity. Qed.

Lemma variants_spec : forall f items, nth_error proj f = Some items ->
  forall its, (forall i, In i its -> In i items) ->
  forall st, Inv st -> hasns (st_env st) f = true ->
  let st' := with_env st (add_variants shape_fixed f (st_env st) its) in
  Reach st st' /\ forall i, In i its -> is_type_item i = true -> Achieved f (st_env st') (st_pending st') i.
Proof.
  intros f items Hn its Hsub st IV Hf. rewrite add_variants_fixed.
  apply (fold_steps _ _ (fun s i => is_type_item i = true -> Achieved f (st_env s) (st_pending s) i) st);
    auto using Keeps_refl.
  - intros i s s' K H Hty. eapply Achieved_kept; eauto.
  - intros i s Hi Is Ks.
    (* only an enum has variants *)
    destruct i as [|t vis vs| | |]; try (split; [now apply table_step | (discriminate || exact (fun _ => I))]).
    destruct (fold_steps _ (variant_step f vis) (fun s v => bound f (st_env s) v vis) s) with (l := vs) (s := s)
      as [R P]; auto using Keeps_refl.
    + intros v s1 s2 K. now apply bound_kept.
    + intros v s1 Hv I1 K1. apply decl_step; auto; [now apply (keeps_ns _ _ K1), (keeps_ns _ _ Ks) | | discriminate].
      exists items. split; auto. right. eauto.
Qed.

Lemma In_sort_items : forall i items, In i (sort_items items) <-> In i items.
Proof.
  intros. unfold sort_items. rewrite in_app_iff, !filter_In. split; [tauto|].
  intros H. destruct (is_type_item i); [left|right]; auto.
Qed.

(* what is asked of the loader for imported files, and proved of load_items below *)
Definition LoadSpec (load : nat -> list Item -> LoadState -> Outcome LoadState) : Prop :=
  forall f items st st', nth_error proj f = Some items -> Inv st -> hasns (st_env st) f = true ->
  load f items st = Ok st' -> Reach st st' /\ Done f (st_env st') (st_pending st').

Lemma bind_import_spec : forall f items target alias st st',
  nth_error proj f = Some items -> In (IImport target alias) items ->
  Inv st -> hasns (st_env st) f = true -> hasns (st_env st) target = true ->
  bind_import shape_fixed f target alias st = Ok st' ->
  Reach st st' /\ st_pending st' = st_pending st /\
  match alias with
  | Some a => val (st_env st') f a <> None
  | None => forall x, exp (st_env st) target x = true -> val (st_env st) target x <> None ->
                      val (st_env st') f x <> None
  end.
Proof.
  intros f items target alias st st' Hn Hi IV Hf Ht. unfold bind_import. rewrite insert_imported_fixed.
  intros [= <-]. destruct alias as [a|].
  - destruct (value_step st (with_env st (set_value (st_env st) f a (VNs target))) f a (VNs target) IV Hf)
      as [R V]; try reflexivity; auto.
    + right. right. left. exists target, items. auto.
    + now intros g [= <-].
  - destruct (Nat.eqb_spec f target) as [->|Hne].
    + split; [now apply table_step | auto].
    + destruct (import_step st (with_env st (import_copy (st_env st) f target false)) f target false IV Hf)
        as [R C]; try reflexivity; auto.
      exists items. auto.
Qed.

Lemma import_item_spec : forall load, LoadSpec load -> forall f items target alias st st',
  nth_error proj f = Some items -> In (IImport target alias) items -> Inv st -> hasns (st_env st) f = true ->
  import_item shape_fixed proj load f target alias st = Ok st' ->
  Reach st st' /\ Achieved f (st_env st') (st_pending st') (IImport target alias).
Proof.
  intros load Hload f items target alias st st' Hn Hi IV Hf. unfold import_item.
  destruct (mem_nat target (st_remaining st)) eqn:Emem.
  - (* first import of an existing file: nested load *)
    destruct (nth_error proj target) as [titems|] eqn:Et; [|discriminate].
    assert (Hlt : target < length proj) by (apply nth_error_Some; congruence).
    destruct (enter_step st target IV Hlt Emem) as (Ie & He & Back).
    destruct (load target titems (enter st target)) as [st2| |] eqn:El; try discriminate. cbn [bind]. intros Hb.
    destruct (Hload target titems _ st2 Et Ie He El) as [R2 D2]. pose proof (Back st2 R2 D2) as R02.
    destruct (bind_import_spec f items target alias st2 st' Hn Hi (reach_inv _ _ R02)) as (R & Hp & A); auto.
    { now apply (Reach_ns _ _ _ R02). }
    { now apply (Reach_ns _ _ _ R2). }
    split; [eapply Reach_trans; eauto|]. destruct alias; cbn; [exact A|].
    right. intros x Hx. destruct (Done_pub _ _ _ D2 x Hx). auto.
  - destruct (target <? length proj) eqn:Elt.
    + (* the file is already in paths_seen: cyclic or repeated import *)
      apply Nat.ltb_lt in Elt. pose proof (inv_seen_ns _ IV target Elt Emem) as Ht.
      assert (Ht' := Ht). unfold hasns in Ht'. destruct (get_ns (st_env st) target); [|discriminate]. intros Hb.
      assert (Rp : Reach st (note_pending shape_fixed f target alias st)).
      { destruct alias; [now apply Reach_refl|]. apply (pend_step st _ f target); auto. exists items. auto. }
      destruct (bind_import_spec f items target alias _ st' Hn Hi (reach_inv _ _ Rp)) as (R & Hp & A); auto.
      { now apply (Reach_ns _ _ _ Rp). }
      { now apply (Reach_ns _ _ _ Rp). }
      split; [eapply Reach_trans; eauto|]. destruct alias; cbn; [exact A|]. left. rewrite Hp. now left.
    + (* the file does not exist *)
      apply Nat.ltb_ge in Elt. cbv zeta. intros Hb.
      assert (E : st_env st' = match alias with Some a => set_value (st_env st) f a VPlaceholderNs | None => st_env st end
                  /\ st_remaining st' = st_remaining st /\ st_pending st' = st_pending st)
        by (destruct (mem_nat target (st_failed st)); injection Hb as <-; auto).
      destruct E as (He & Hr & Hp). destruct alias as [a|]; cbn.
      * apply (value_step st st' f a VPlaceholderNs); auto; [|discriminate].
        right. right. left. exists target, items. auto.
      * split; [apply table_step; auto; now rewrite He|].
        right. intros x Hx. apply pubp_range in Hx. lia.
Qed.

Lemma load_item_spec : forall load, LoadSpec load -> forall f items i st st',
  nth_error proj f = Some items -> In i items -> Inv st -> hasns (st_env st) f = true ->
  load_item shape_fixed proj load f i st = Ok st' ->
  Reach st st' /\ (is_type_item i = false -> Achieved f (st_env st') (st_pending st') i).
Proof.
  intros load Hload f items i st st' Hn Hi IV Hf.
  destruct i as [x vis|t vis vs|t vis|t m vis|target alias]; cbn [load_item];
    (* types and methods only go into the tables *)
    try (intros [= <-]; split; [now apply table_step | (discriminate || exact (fun _ => I))]).
  - intros [= <-]. destruct (decl_step st f x vis (VFun f x) IV Hf) as [R B]; auto; [|discriminate].
    exists items. auto.
  - intros H. destruct (import_item_spec load Hload f items target alias st st' Hn Hi IV Hf H). auto.
Qed.

Lemma load_loop_spec : forall load, LoadSpec load -> forall f items, nth_error proj f = Some items ->
  forall its st st', (forall i, In i its -> In i items) -> Inv st -> hasns (st_env st) f = true ->
  load_loop shape_fixed proj load f its st = Ok st' ->
  Reach st st' /\ forall i, In i its -> is_type_item i = false -> Achieved f (st_env st') (st_pending st') i.
Proof.
  intros load Hload f items Hn. induction its as [|i rest IH]; intros st st' Hsub IV Hf; cbn [load_loop].
  - intros [= <-]. split; [now apply Reach_refl | intros i []].
  - destruct (load_item shape_fixed proj load f i st) as [st1| |] eqn:E1; try discriminate. cbn [bind]. intros E2.
    destruct (load_item_spec load Hload f items i st st1 Hn (Hsub i (or_introl eq_refl)) IV Hf E1) as [R1 A1].
    destruct (IH st1 st' (fun j Hj => Hsub j (or_intror Hj)) (reach_inv _ _ R1) (Reach_ns _ _ _ R1 Hf) E2)
      as [R2 A2].
    split; [eapply Reach_trans; eauto|].
    intros j [<-|Hj] Hty; [|auto]. eapply Achieved_kept; [exact (reach_keeps _ _ R2)|auto].
Qed.

Theorem load_items_spec : forall fuel, LoadSpec (load_items shape_fixed proj fuel).
Proof.
  induction fuel as [|fuel IH]; intros f items st st' Hn IV Hf; [discriminate|].
  rewrite load_items_S.
  destruct (load_loop _ _ _ _ _ _) as [st1| |] eqn:E1; try discriminate. cbn [bind]. intros [= <-].
  assert (Hsub : forall i, In i (sort_items items) -> In i items) by (intros i; apply In_sort_items).
  destruct (load_loop_spec _ IH f items Hn _ st st1 Hsub IV Hf E1) as [R1 A1].
  destruct (variants_spec f items Hn _ Hsub st1 (reach_inv _ _ R1) (Reach_ns _ _ _ R1 Hf)) as [R2 A2].
  split; [eapply Reach_trans; eauto|].
  intros items' i Hn' Hi. rewrite Hn in Hn'. injection Hn' as <-. apply In_sort_items in Hi.
  destruct (is_type_item i) eqn:Ety; [auto|]. eapply Achieved_kept; [exact (reach_keeps _ _ R2)|auto].
Qed.

(* finish_cyclic_imports, one pending import *)
Definition fp_step (e : Env) (p : nat * nat) : Env :=
  let '(cur, target) := p in if Nat.eqb cur target then e else import_copy e cur target true.

Lemma finish_pending_fold : forall e pending, finish_pending e pending = fold_left fp_step (rev pending) e.
Proof. reflexivity. Qed.

Lemma finish_spec : forall st, Inv st ->
  (forall g, hasns (st_env st) g = true -> Done g (st_env st) (st_pending st)) ->
  let e' := finish_pending (st_env st) (st_pending st) in
  Reach st (with_env st e') /\
  forall c t, In (c, t) (st_pending st) -> forall x, pubp t x = true -> val e' c x <> None.
Proof.
  intros st IV HD e'. subst e'. rewrite finish_pending_fold.
  destruct (fold_steps _ fp_step (fun s p => forall x, pubp (snd p) x = true -> val (st_env s) (fst p) x <> None) st)
    with (l := rev (st_pending st)) (s := st) as [R P]; auto using Keeps_refl.
  - intros p s s' K H x Hx. apply (keeps_val _ _ K). auto.
  - intros [c t] s Hin Is K. apply in_rev in Hin. destruct (inv_pend _ IV c t Hin) as (A & B & C).
    assert (D : forall x, pubp t x = true -> exp (st_env s) t x = true /\ val (st_env s) t x <> None).
    { intros x Hx. destruct (Done_pub t _ _ (HD t C) x Hx).
      split; [now apply (keeps_exp _ _ K) | now apply (keeps_val _ _ K)]. }
    cbn [fst snd]. unfold fp_step. destruct (Nat.eqb_spec c t) as [->|Hne].
    + split; [now apply table_step|]. intros x Hx. now apply D.
    + destruct (import_step s (with_env s (import_copy (st_env s) c t true)) c t true Is (keeps_ns _ _ K _ B) A)
        as [R C1]; try reflexivity.
      split; auto. intros x Hx. destruct (D x Hx). now apply C1.
  - split; [exact R|]. intros c t Hin. apply (P (c, t)). now apply -> in_rev.
Qed.

Lemma initial_inv : let st := {| st_env := get_or_create_ns empty_env root; st_remaining := seq 0 (length proj);
                                 st_failed := []; st_pending := [] |} in
  Inv st /\ hasns (st_env st) root = true.
Proof.
  intros st. split.
  - constructor; subst st; cbn [st_env st_remaining st_pending]; intros *;
      rewrite ?exp_get_or_create, ?hasns_get_or_create, ?vals_get_or_create, ?val_get_or_create.
    + discriminate.
    + destruct (Nat.eqb_spec g root); auto. discriminate.
    + intros Hg Hm. assert (Hin : In g (seq 0 (length proj))) by (apply in_seq; lia).
      apply mem_nat_true in Hin. congruence.
    + intros [[= <- <-]|[]]. split; [left; now left | discriminate].
    + intros [<-|[]]. discriminate.
    + intros [].
  - subst st; cbn [st_env]. rewrite hasns_get_or_create, Nat.eqb_refl. reflexivity.
Qed.

Record Loaded (e : Env) : Prop := {
  ld_root : hasns e root = true;
  ld_sound : forall g x, exp e g x = true -> pubp g x = true;
  ld_vals : forall f k w, In (k, w) (vals e f) -> allowed f k /\ forall g, w = VNs g -> hasns e g = true;
  ld_prel : forall f p, In p prelude_names -> val e f p <> None;
  ld_range : forall g, hasns e g = true -> g < length proj;
  ld_items : forall g, hasns e g = true -> Done g e []
}.

Theorem load_root_spec : forall fuel e,
  root < length proj -> load_root shape_fixed proj fuel root = Ok e -> Loaded e.
Proof.
  intros fuel e Hroot. unfold load_root.
  destruct (nth_error proj root) as [items|] eqn:Hn; [|apply nth_error_None in Hn; lia].
  destruct initial_inv as [I0 Hr0].
  match goal with |- context [load_items shape_fixed proj fuel root items ?s] => set (st0 := s) in * end.
  destruct (load_items shape_fixed proj fuel root items st0) as [st1| |] eqn:El; try discriminate.
  cbn [shape_fixed sh_finish_cyclic]. intros [= <-].
  destruct (load_items_spec fuel root items st0 st1 Hn I0 Hr0 El) as [[I1 K1 N1] D1].
  assert (AllDone : forall g, hasns (st_env st1) g = true ->
                              g < length proj /\ Done g (st_env st1) (st_pending st1)).
  { intros g Hg. destruct (inv_ns_seen _ I1 g Hg) as [->|[Hlt Hm]]; split; auto.
    apply N1; auto. apply mem_nat_true, in_seq. lia. }
  destruct (finish_spec st1 I1 (fun g Hg => proj2 (AllDone g Hg))) as [[I2 K2 _] C2].
  set (e2 := finish_pending (st_env st1) (st_pending st1)) in *.
  assert (Hh : forall g, hasns e2 g = true -> hasns (st_env st1) g = true).
  { intros g Hg. destruct (inv_ns_seen _ I2 g Hg) as [->|[Hlt Hm]].
    - now apply (keeps_ns _ _ K1).
    - now apply (inv_seen_ns _ I1). }
  constructor.
  - now apply (keeps_ns _ _ K2), (keeps_ns _ _ K1).
  - exact (inv_sound _ I2).
  - exact (inv_vals _ I2).
  - exact (inv_prel _ I2).
  - intros g Hg. now apply AllDone, Hh.
  - intros g Hg items' i Hn' Hi.
    pose proof (Achieved_kept g i _ _ K2 (proj2 (AllDone g (Hh g Hg)) items' i Hn' Hi)) as A.
    destruct i as [| | | |t [a|]]; try exact A. destruct A as [A|A]; right; [exact (C2 g t A) | exact A].
Qed.

End Gen.

Section Final.
Variable proj : Project.
Variable root : nat.
Variable fuel : nat.
Variable e : Env.
Hypothesis Hcons : consistent_marks proj.
Hypothesis Hroot : root < length proj.
Hypothesis Hload : load_root shape_fixed proj fuel root = Ok e.

Let L : Loaded proj root e := load_root_spec proj root Hcons fuel e Hroot Hload.

Theorem root_is_loaded : hasns e root = true.
Proof. exact (ld_root _ _ _ L). Qed.

(* the exported_syms of every loaded file are exactly its `public` marks *)
Theorem exported_iff_public_lemma : forall g, hasns e g = true -> forall x, exp e g x = pubp proj g x.
Proof.
  intros g Hg x. destruct (exp e g x) eqn:E.
  - symmetry. exact (ld_sound _ _ _ L g x E).
  - destruct (pubp proj g x) eqn:P; auto. destruct (Done_pub _ _ _ _ (ld_items _ _ _ L g Hg) x P). congruence.
Qed.

(* every namespace value refers to a loaded file *)
Theorem namespace_values_are_loaded_lemma : forall f a g, val e f a = Some (VNs g) -> hasns e g = true.
Proof. intros f a g H. apply lookup_N_In in H. exact (proj2 (ld_vals _ _ _ L f a _ H) g eq_refl). Qed.

(* `a::x` resolves exactly when a names the namespace of a file that marks x public *)
Theorem qualified_visible_iff_public_lemma : forall f a x,
  run_qualified e f a x = Resolved <-> exists g, val e f a = Some (VNs g) /\ pubp proj g x = true.
Proof.
  intros f a x. rewrite qualified_visible_iff_exported_lemma. split.
  - intros (g & Ha & Hx & Hm). exists g. split; auto. exact (ld_sound _ _ _ L g x Hm).
  - intros (g & Ha & Hp). exists g. pose proof (namespace_values_are_loaded_lemma f a g Ha) as Hg.
    destruct (Done_pub _ _ _ _ (ld_items _ _ _ L g Hg) x Hp) as [A B]. repeat split; auto.
Qed.

Lemma run_unqualified_val : forall f x, run_unqualified e f x = Resolved <-> val e f x <> None.
Proof. intros. unfold run_unqualified, val. destruct (lookup_N x (ns_values (ns_of e f))); split; congruence. Qed.

(* an unqualified name resolves in a loaded file exactly when it is a prelude name, a declaration of the
   file itself, an import alias of the file, or a public item of a file it imports without `as` *)
Theorem unqualified_visible_iff_lemma : forall f, hasns e f = true -> forall x,
  run_unqualified e f x = Resolved <-> allowed proj f x.
Proof.
  intros f Hf x. rewrite run_unqualified_val. pose proof (ld_items _ _ _ L f Hf) as A. split.
  - destruct (val e f x) as [w|] eqn:E; [|congruence]. intros _.
    exact (proj1 (ld_vals _ _ _ L f x w (lookup_N_In _ _ _ _ E))).
  - intros [H|[(items & Hn & H)|[(t & items & Hn & H)|(g & (items & Hn & H) & Hp)]]].
    + exact (ld_prel _ _ _ L f x H).
    + destruct H as [[vis H]|(t & vis & vs & H & Hx)]; [apply (A items _ Hn H) | apply (A items _ Hn H x Hx)].
    + exact (A items _ Hn H).
    + destruct (A items _ Hn H) as [[]|B]. exact (B x Hp).
Qed.

(* completeness in any graph, cycles and self-imports included *)
Theorem unqualified_import_complete_lemma : forall f g x,
  hasns e f = true -> import_plain proj f g -> pubp proj g x = true -> run_unqualified e f x = Resolved.
Proof. intros f g x Hf Hi Hp. apply unqualified_visible_iff_lemma; auto. right. right. right. eauto. Qed.

(* nothing else becomes visible: no private item, no re-export *)
Theorem unqualified_import_sound_lemma : forall f x,
  hasns e f = true -> run_unqualified e f x = Resolved ->
  ~ In x prelude_names -> ~ declared proj f x -> (forall t, ~ import_alias proj f t x) ->
  exists g, import_plain proj f g /\ pubp proj g x = true.
Proof.
  intros f x Hf H N1 N2 N3. apply unqualified_visible_iff_lemma in H; auto.
  destruct H as [H|[H|[(t & H)|H]]]; try tauto. exfalso. eapply N3; eauto.
Qed.

Theorem loaded_files_exist_lemma : forall g, hasns e g = true -> g < length proj.
Proof. exact (ld_range _ _ _ L). Qed.

End Final.

(* non-vacuity: a concrete cyclic project satisfies the hypotheses *)
Definition ex_proj : Project :=
  [ [IImport 1 None; IFun 5 Public; IImport 0 None];
    [IImport 0 None; IFun 1 Public; IFun 2 Private; IEnum 22 Public [3%N]; IEnum 23 Private [4%N]; IImport 1 (Some 10%N)] ].

Lemma ex_proj_consistent : consistent_marks ex_proj.
Proof.
  intros [|[|g]] x; unfold pubp, privp; cbn [nth_error ex_proj]; [reflexivity| |destruct g; discriminate].
  (* file 1 marks 1 and 3 public, and neither private *)
  unfold declares_public_value. cbn [existsb shape_fixed sh_export_public_variants andb orb mem_N].
  destruct (N.eqb_spec 1 x) as [<-|]; [reflexivity|]. destruct (N.eqb_spec x 3) as [->|]; [reflexivity|discriminate].
Qed.

Lemma ex_proj_loads : exists e, load_root shape_fixed ex_proj 3 0 = Ok e /\
  run_unqualified e 0 1 = Resolved /\ run_unqualified e 0 3 = Resolved /\ run_unqualified e 0 2 = Rejected /\
  run_unqualified e 1 5 = Resolved /\ run_qualified e 1 10 1 = Resolved /\ run_qualified e 1 10 2 = Rejected.
Proof. eexists. split; [vm_compute; reflexivity|]. vm_compute. repeat split. Qed.

(* the hypothesis on the marks is needed: a name marked public AND private is not exported *)
Lemma consistent_marks_needed :
  let p := [[IFun 1 Public; IFun 1 Private]] in
  ~ consistent_marks p /\
  exists e, load_root shape_fixed p 2 0 = Ok e /\ pubp p 0 1 = true /\ exp e 0 1 = false.
Proof.
  split.
  - intros H. specialize (H 0 1%N eq_refl). vm_compute in H. discriminate.
  - eexists. split; [vm_compute; reflexivity|]. vm_compute. split; reflexivity.
Qed.
