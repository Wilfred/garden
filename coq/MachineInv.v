(* Facts about the evaluator model (Machine.v).  `exec_spec`, one case analysis
   over exec, says of each answer: XOk keeps (block depth - pending block-popping entries),
   the executed entry counted as still pending before, and keeps `uses`; only a
   finished ECall answers XCall; every XErr is a KException.  It serves the two results here -- failed steps restore the frame
   (C07), the binding-block discipline (C06) -- and MachineStopWhole.v,
   MachineSessionLive.v, RefineSession.v. *)
From Coq Require Import NArith List Lia.
From Garden Require Import Machine.
Import ListNotations.
Open Scope nat_scope.

Lemma push_val_if_blocks b f v : blocks (push_val_if b f v) = blocks f.
Proof. destruct b; reflexivity. Qed.
Lemma push_val_if_todo b f v : todo (push_val_if b f v) = todo f.
Proof. destruct b; reflexivity. Qed.
Lemma push_val_if_uses b f v : uses (push_val_if b f v) = uses f.
Proof. destruct b; reflexivity. Qed.

Lemma fold_push_todo_eq items : forall f,
  fold_left (fun acc it => push_todo acc SNot it) items f =
  set_todo f (map (fun e => (SNot, e)) (rev items) ++ todo f).
Proof.
  induction items as [|x items IH]; intros f; cbn [fold_left rev].
  - destruct f; reflexivity.
  - rewrite IH, map_app, <- app_assoc. reflexivity.
Qed.

Lemma pop_n_app : forall W V, pop_n (length W) (W ++ V) = Some (W, V).
Proof. induction W as [|w W IH]; intros V; cbn [length pop_n app]; [reflexivity|]. now rewrite IH. Qed.

Lemma add_new_length x v bs : length (add_new x v bs) = length bs.
Proof. unfold add_new. destruct (N.eqb x underscore); [reflexivity|]. destruct bs; reflexivity. Qed.

Lemma add_all_length l : forall bs, length (add_all bs l) = length bs.
Proof.
  induction l as [|[x v] l IH]; intros bs; cbn [add_all]; [reflexivity|].
  rewrite IH. apply add_new_length.
Qed.

Lemma set_existing_length x v : forall bs bs', set_existing x v bs = Some bs' -> length bs' = length bs.
Proof.
  induction bs as [|b bs IH]; intros bs' H; cbn [set_existing] in H; [discriminate|].
  destruct (assoc x b).
  - inversion H; reflexivity.
  - destruct (set_existing x v bs) as [r|] eqn:E; [|discriminate]. inversion H; subst. cbn. f_equal. now apply IH.
Qed.

Lemma eval_block_todo_eq f u body :
  todo (eval_block f u body) = map (fun e => (SNot, e)) body ++ todo f.
Proof. unfold eval_block. destruct body; rewrite ?push_val_if_todo; reflexivity. Qed.

Lemma eval_block_blocks_eq f u body : blocks (eval_block f u body) = add_all ([] :: blocks f) (nextb f).
Proof. unfold eval_block. destruct body; rewrite ?push_val_if_blocks; reflexivity. Qed.

Lemma eval_block_uses f u body : uses (eval_block f u body) = uses f.
Proof. unfold eval_block. destruct body; rewrite ?push_val_if_uses; reflexivity. Qed.

Lemma pop_block_list_length bs bs1 : pop_block_list bs = Some bs1 -> length bs = S (length bs1).
Proof. destruct bs as [|a [|b bs]]; cbn; intros H; inversion H; reflexivity. Qed.

Lemma pop_block_length f f1 : pop_block f = Some f1 ->
  length (blocks f) = S (length (blocks f1)) /\ todo f1 = todo f.
Proof.
  unfold pop_block. destruct (blocks f) as [|a [|b bs]] eqn:E; intros H; inversion H; subst.
  cbn. auto.
Qed.

Lemma pop_block_vals f f1 : pop_block f = Some f1 -> vals f1 = vals f /\ todo f1 = todo f.
Proof.
  unfold pop_block. destruct (blocks f) as [|a [|b bs]]; intros H; inversion H; subst. cbn. auto.
Qed.

(* One case split on the innermost scrutinee of a `match` in H. *)
Ltac break_match H :=
  match type of H with
  | context [match ?x with _ => _ end] =>
      lazymatch x with
      | context [match _ with _ => _ end] => fail
      | _ => first [is_var x; destruct x | destruct x eqn:?]; try discriminate
      end
  end.

Lemma eval_binop_cases f m o lp rp r : eval_binop f m o lp rp = r ->
  match r with
  | XOk f' _ => exists rv lv vs v, vals f = rv :: lv :: vs /\ f' = push_val_if (used m) (set_vals f vs) v
  | XErr er => ekind_of er = KException
  | XPanic => True
  | XCall _ _ | XUnsupported => False
  end.
Proof.
  unfold eval_binop, exn. intros H. destruct (vals f) as [|rv [|lv vs]]; [subst r; exact I..|].
  repeat break_match H; subst r; try reflexivity; try exact I; exists rv, lv, vs; eauto.
Qed.

Lemma eval_call_cases p f m args r : eval_call p f m args = r ->
  match r with
  | XOk f' _ => exists vs v, f' = push_val_if (used m) (set_vals f vs) v
  | XCall f' callee => exists vs bs body, f' = set_vals f vs /\ callee = new_frame bs body (used m)
  | XErr er => ekind_of er = KException
  | XPanic | XUnsupported => True
  end.
Proof. unfold eval_call, exn. intros H. repeat break_match H; subst r; cbn; eauto. Qed.

Lemma match_cases_cases p u sp ty idx pl cases : forall f r,
  match_cases p f u sp ty idx pl cases = r ->
  match r with
  | XOk f' _ => exists b body, In body (map snd cases) /\ f' = eval_block (set_nextb f b) u body
  | XErr er => ekind_of er = KException
  | XCall _ _ | XPanic | XUnsupported => False
  end.
Proof.
  induction cases as [|[[[pat ppos] binder] body] cs IH]; intros f r H; cbn [match_cases] in H.
  - subst r. reflexivity.
  - repeat break_match H;
      try (apply IH in H; destruct r; try exact H;
           destruct H as (b & bd & IN & E); exists b, bd; split; [right; exact IN|exact E]);
      subst r; try reflexivity; eexists _, body; (split; [left; reflexivity|reflexivity]).
Qed.

(* How many binding blocks the entries of a continuation have still to pop. *)
Definition pops (x : estate * expr) : nat := if entry_pops (fst x) (snd x) then 1 else 0.

Fixpoint pending (t : list (estate * expr)) : nat :=
  match t with
  | [] => 0
  | x :: t' => pops x + pending t'
  end.

Lemma pending_app a b : pending (a ++ b) = pending a + pending b.
Proof. induction a as [|x a IH]; cbn [app pending]; lia. Qed.

Lemma pending_fresh body : pending (map (fun e => (SNot, e)) body) = 0.
Proof. induction body as [|e body IH]; cbn; auto. Qed.

(* The blocks an entry owns, by the form of its expression. *)
Lemma pops_eq s e : pops (s, e) =
  match e with
  | EIf _ _ _ _ | EMatch _ _ _ => match s with SDone => 1 | _ => 0 end
  | EWhile _ _ _ => match s with SPart BDoneRun => 1 | _ => 0 end
  | EFor _ _ _ _ => match s with SDone | SPart BDoneRun => 1 | _ => 0 end
  | _ => 0
  end.
Proof. destruct s as [|[]|], e; reflexivity. Qed.

(* The shape in which break, continue and return each drop an entry: one that
   owns a block takes it along. *)
Lemma discard_entry {A} s e bs (k : list block -> option A) r :
  (if entry_pops s e
   then match pop_block_list bs with Some bs1 => k bs1 | None => None end
   else k bs) = Some r ->
  exists bs1, k bs1 = Some r /\ length bs = pops (s, e) + length bs1.
Proof.
  unfold pops; cbn [fst snd]. destruct (entry_pops s e).
  - destruct (pop_block_list bs) as [bs1|] eqn:P; [|discriminate].
    apply pop_block_list_length in P. eauto.
  - eauto.
Qed.

(* An equation to rewrite with: unfolding break_unwind before the form of the
   entry is known copies the loop case once for every form of expression. *)
Lemma break_unwind_skip s x t bs vs : is_running_loop s x = false ->
  break_unwind ((s, x) :: t) bs vs =
  if entry_pops s x
  then match pop_block_list bs with Some bs1 => break_unwind t bs1 vs | None => None end
  else break_unwind t bs vs.
Proof. intros RL. cbn [break_unwind]. now rewrite RL. Qed.

Lemma break_unwind_loop s x t bs vs : is_running_loop s x = true ->
  match break_unwind ((s, x) :: t) bs vs with
  | Some (t', bs', _, _) =>
      t' = (SDone, x) :: t /\ length bs' + pops (s, x) = length bs + pops (SDone, x)
  | None => True
  end.
Proof.
  intros RL. destruct s as [|b|]; try discriminate RL; destruct x; try discriminate RL; cbn [break_unwind is_running_loop].
  - destruct b; [|destruct (pop_block_list bs) as [bs1|] eqn:P; [apply pop_block_list_length in P|]|];
      try exact I; (split; [reflexivity|cbn; lia]).
  - destruct b, vs as [|? [|? ?]]; try exact I; (split; [reflexivity|cbn; lia]).
Qed.

Lemma break_unwind_balance t : forall bs vs t' bs' vs' lu,
  break_unwind t bs vs = Some (t', bs', vs', lu) ->
  length bs' + pending t = length bs + pending t'.
Proof.
  induction t as [|[s e] t IH]; intros bs vs t' bs' vs' lu H.
  - injection H as <- <- _ _. reflexivity.
  - destruct (is_running_loop s e) eqn:R.
    + pose proof (break_unwind_loop s e t bs vs R) as L. rewrite H in L. destruct L as [-> L].
      cbn [pending]. lia.
    + rewrite (break_unwind_skip _ _ _ _ _ R) in H.
      apply (discard_entry s e bs (fun b => break_unwind t b vs)) in H as (bs1 & H & L).
      apply IH in H. cbn [pending]. lia.
Qed.

Lemma continue_unwind_balance t : forall bs t' bs',
  continue_unwind t bs = Some (t', bs') ->
  length bs' + pending t = length bs + pending t'.
Proof.
  induction t as [|[s e] t IH]; intros bs t' bs' H; cbn [continue_unwind] in H.
  - injection H as <- <-. reflexivity.
  - destruct (is_running_loop s e).
    + injection H as <- <-. reflexivity.
    + apply (discard_entry s e bs (continue_unwind t)) in H as (bs1 & H & L).
      apply IH in H. cbn [pending]. lia.
Qed.

Lemma return_unwind_balance t : forall bs bs',
  return_unwind t bs = Some bs' -> length bs = length bs' + pending t.
Proof.
  induction t as [|[s e] t IH]; intros bs bs' H; cbn [return_unwind] in H.
  - injection H as <-. cbn. lia.
  - apply (discard_entry s e bs (return_unwind t)) in H as (bs1 & H & L).
    apply IH in H. cbn [pending]. lia.
Qed.

(* exec runs on the frame f from which the entry (s, e) has been popped; the
   count in the XOk case is with that entry still pending. *)
Definition exec_post (p : prog) (f : frame) (s : estate) (e : expr) (r : xres) : Prop :=
  match r with
  | XOk f' _ => length (blocks f') + pending ((s, e) :: todo f) = length (blocks f) + pending (todo f') /\
                uses f' = uses f
  | XCall _ _ => s = SDone /\ exists m fe args, e = ECall m fe args /\ eval_call p f m args = r
  | XErr er => ekind_of er = KException
  | XPanic | XUnsupported => True
  end.

Lemma exec_spec p f s e r : exec p f s e = r -> exec_post p f s e r.
Proof.
  intros H.
  (* one goal for each way through exec; exec_post is unfolded only at the
     ends, so that the case analysis does not carry its text along *)
  destruct e; cbn [exec] in H; unfold pop_val, pop_block, exn in H; repeat break_match H.
  all: try (apply eval_binop_cases in H; destruct r; try exact H; try contradiction;
            destruct H as (rv & lv & vs & v & _ & ->)).
  all: try (pose proof (eval_call_cases _ _ _ _ _ H) as C; destruct r; try exact C;
            [destruct C as (vs & v & ->)|repeat esplit; exact H]).
  all: try (apply match_cases_cases in H; destruct r; try exact H; try contradiction;
            destruct H as (nb & body & _ & ->)).
  all: try subst r; try reflexivity; try exact I.
  all: split; [|rewrite ?push_val_if_uses, ?eval_block_uses, ?fold_push_todo_eq; reflexivity].
  all: repeat match goal with
       | E : set_existing _ _ _ = Some _ |- _ => apply set_existing_length in E; cbn [blocks set_vals] in E
       | E : break_unwind _ _ _ = Some _ |- _ => apply break_unwind_balance in E
       | E : continue_unwind _ _ = Some _ |- _ => apply continue_unwind_balance in E
       | E : return_unwind _ _ = Some _ |- _ => apply return_unwind_balance in E
       | E : blocks _ = _ |- _ => apply (f_equal (@length _)) in E; cbn [length] in E
       end.
  (* the frames exec answers are a push_val_if, an eval_block or pushed
     entries over frame operations that compute *)
  all: cbn [pending]; rewrite pops_eq;
    first [ rewrite push_val_if_blocks, push_val_if_todo
          | rewrite eval_block_blocks_eq, eval_block_todo_eq, add_all_length, pending_app, pending_fresh
          | rewrite fold_push_todo_eq; cbn [todo set_todo]; rewrite pending_app, pending_fresh
          | idtac ];
    cbn [todo blocks push_todo push_val set_vals set_blocks set_todo set_nextb pending pops fst snd entry_pops length];
    rewrite ?add_new_length; first [reflexivity|lia].
Qed.

(* C07: a failed step leaves every frame and the output as they were; ticks
   advance by one and `interrupted` is cleared *)
Lemma step_failed_restores p s e s' :
  step p s = Failed e s' ->
  stack s' = stack s /\ out s' = out s /\ interrupted s' = false /\
  tick_limit s' = tick_limit s /\ stack_limit s' = stack_limit s /\ ticks s' = (ticks s + 1)%N.
Proof.
  unfold step. intros H.
  destruct (stack s) as [|f rest] eqn:ES; [discriminate|].
  destruct (todo f) as [|[es ex] t].
  - destruct rest; destruct (vals f); discriminate.
  - destruct (interrupted s); [inversion H; subst; cbn; auto 10|].
    destruct (opt_le _ _); [inversion H; subst; cbn; auto 10|].
    destruct (opt_lt _ _); [inversion H; subst; cbn; auto 10|].
    destruct (exec p (set_todo f t) es ex); try discriminate.
    inversion H; subst. cbn. auto 10.
Qed.

(* exec does not look at ticks: retrying the failed step fails in the same way *)
Lemma resume_same_error p s e s' :
  step p s = Failed e s' -> ekind_of e = KException -> tick_limit s = None ->
  exists s'', step p s' = Failed e s''.
Proof.
  intros H K TL. pose proof (step_failed_restores _ _ _ _ H) as (ST & OU & IN & TL' & SL' & TK).
  unfold step in *. rewrite ST, IN, TL', SL', TL in *.
  destruct (stack s) as [|f rest] eqn:ES; [discriminate|].
  destruct (todo f) as [|[es ex] t].
  - destruct rest; destruct (vals f); discriminate.
  - destruct (interrupted s); [inversion H; subst; discriminate|].
    cbn [opt_le] in *.
    destruct (opt_lt (stack_limit s) (N.of_nat (length (f :: rest)))); [inversion H; subst; discriminate|].
    destruct (exec p (set_todo f t) es ex); try discriminate.
    inversion H; subst. eexists. reflexivity.
Qed.

Fixpoint resume_n (p : prog) (n : nat) (s : state) : option (err * state) :=
  match n with
  | O => None
  | S n' => match step p s with
            | Failed e s' => match n' with O => Some (e, s') | _ => resume_n p n' s' end
            | _ => None
            end
  end.

Theorem resume_idempotent p n : forall s e s',
  step p s = Failed e s' -> ekind_of e = KException -> tick_limit s = None ->
  exists s'', resume_n p (S n) s' = Some (e, s'') /\ stack s'' = stack s.
Proof.
  induction n as [|n IH]; intros s e s' H K TL;
    destruct (resume_same_error _ _ _ _ H K TL) as (s'' & H2);
    apply step_failed_restores in H as (ST & _ & _ & TL' & _);
    cbn [resume_n]; rewrite H2.
  - exists s''. split; [reflexivity|]. apply step_failed_restores in H2 as (-> & _). exact ST.
  - rewrite <- ST. apply (IH _ _ _ H2 K). congruence.
Qed.

(* C06, the block discipline: in every frame, at every step, the number of live
   binding blocks is base + the number of pending continuation entries that
   will pop one.  A frame's base is the depth it started with: the blocks of
   its call (new_frame), 1 for the toplevel frame; `last bases 0`, the base of
   the bottom frame, is carried so that reach_inv can say it is still 1. *)
Definition balanced (base : nat) (f : frame) : Prop :=
  length (blocks f) = base + pending (todo f).

Definition inv (bases : list nat) (s : state) : Prop := Forall2 balanced bases (stack s).

Lemma step_next_inv p s s' bases :
  inv bases s -> step p s = Next s' ->
  exists bases', inv bases' s' /\ last bases' 0 = last bases 0 /\
    (bases' = bases \/ (exists b, bases' = b :: bases) \/ bases' = tl bases).
Proof.
  unfold inv, step. intros Hi H.
  destruct (stack s) as [|f rest]; [discriminate|].
  inversion Hi as [|b0 f0 bs0 r0 Hb Hr]; subst.
  destruct (todo f) as [|[es e] t] eqn:ET.
  - destruct rest as [|caller rest']; destruct (vals f) as [|v vs]; try discriminate.
    injection H as <-. inversion Hr as [|b1 f1 bs1 r1 Hb1 Hr1]; subst.
    exists (b1 :: bs1). split; [|split; [reflexivity|right; right; reflexivity]].
    constructor; [|assumption]. unfold balanced in *. now rewrite push_val_if_blocks, push_val_if_todo.
  - destruct (interrupted s); [discriminate|].
    destruct (opt_le _ _); [discriminate|]. destruct (opt_lt _ _); [discriminate|].
    unfold balanced in Hb. rewrite ET in Hb.
    destruct (exec p (set_todo f t) es e) as [f' pr|f' callee| | |] eqn:EX; try discriminate;
      injection H as <-; apply exec_spec in EX; cbn [exec_post todo blocks set_todo] in EX.
    + destruct EX as [EX _]. exists (b0 :: bs0). split; [|split; [reflexivity|left; reflexivity]].
      constructor; [unfold balanced; lia|assumption].
    + destruct EX as (-> & m & fe & args & -> & EC).
      apply eval_call_cases in EC as (vs & bs & body & -> & ->).
      exists (length bs :: b0 :: bs0). split; [|split; [reflexivity|right; left; eexists; reflexivity]].
      repeat constructor; [|exact Hb|assumption].
      unfold balanced, new_frame. cbn [blocks todo]. now rewrite pending_fresh.
Qed.

Theorem frame_block_discipline p s s' bases :
  inv bases s -> step p s = Next s' ->
  exists bases', inv bases' s' /\
    (bases' = bases \/ (exists b, bases' = b :: bases) \/ bases' = tl bases).
Proof.
  intros Hi H. destruct (step_next_inv p s s' bases Hi H) as (bases' & Hi' & _ & C). eauto.
Qed.

Lemma step_done_inv p s v s' bases : inv bases s -> step p s = Done v s' -> inv bases s'.
Proof.
  unfold inv, step. intros Hi H.
  destruct (stack s) as [|f rest] eqn:ES; [discriminate|].
  destruct (todo f) as [|[es e] t] eqn:ET.
  - destruct rest; [|destruct (vals f); discriminate].
    destruct (vals f) as [|w vs]; [discriminate|]. inversion H; subst. cbn [stack].
    inversion Hi; subst. constructor; [|assumption].
    unfold balanced in *. cbn. assumption.
  - destruct (interrupted s); [discriminate|].
    destruct (opt_le _ _); [discriminate|]. destruct (opt_lt _ _); [discriminate|].
    destruct (exec p (set_todo f t) es e); discriminate.
Qed.

Inductive reach (p : prog) (s0 : state) : state -> Prop :=
| reach_refl : reach p s0 s0
| reach_next s s' : reach p s0 s -> step p s = Next s' -> reach p s0 s'
| reach_failed s e s' : reach p s0 s -> step p s = Failed e s' -> reach p s0 s'.

Theorem reach_inv p s0 s bases :
  inv bases s0 -> reach p s0 s -> exists bases', inv bases' s /\ last bases' 0 = last bases 0.
Proof.
  intros I0 R. induction R as [|s s' R (bs & Hi & L) H|s e s' R (bs & Hi & L) H].
  - exists bases. auto.
  - destruct (step_next_inv _ _ _ _ Hi H) as (bs' & Hi' & L' & _).
    exists bs'. split; [assumption|congruence].
  - exists bs. split; [|assumption].
    unfold inv. apply step_failed_restores in H as (-> & _). exact Hi.
Qed.

Lemma init_inv exprs tl sl : inv [1] (init_state exprs tl sl).
Proof.
  unfold inv, init_state, toplevel_frame. cbn. constructor; [|constructor].
  unfold balanced. cbn. now rewrite pending_fresh.
Qed.

Fixpoint bottom (st : list frame) : option frame :=
  match st with
  | [] => None
  | [f] => Some f
  | _ :: st' => bottom st'
  end.

Lemma inv_bottom bases st f :
  Forall2 balanced bases st -> bottom st = Some f -> balanced (last bases 0) f.
Proof.
  induction 1 as [|b f0 bases st Hb Hr IH]; [discriminate|].
  destruct Hr; [intros [= <-]; exact Hb|exact IH].
Qed.

(* In every state reachable from the start of a toplevel evaluation -- through
   any number of steps, failures and resumptions -- the toplevel frame holds
   exactly 1 + (number of pending block-popping continuations) binding blocks:
   every block that was entered has been left again or is still pending, no
   matter whether it was left normally, by break, continue or return. *)
Theorem toplevel_block_discipline p exprs tl sl s f :
  reach p (init_state exprs tl sl) s -> bottom (stack s) = Some f ->
  length (blocks f) = 1 + pending (todo f).
Proof.
  intros R B.
  destruct (reach_inv p _ s [1] (init_inv exprs tl sl) R) as (bs & Hi & L).
  pose proof (inv_bottom _ _ _ Hi B) as Hb. rewrite L in Hb. exact Hb.
Qed.

(* In particular, between two toplevel statements only the toplevel scope is live. *)
Corollary toplevel_scope_restored p exprs tl sl s f :
  reach p (init_state exprs tl sl) s -> bottom (stack s) = Some f ->
  Forall (fun x => fst x = SNot) (todo f) -> length (blocks f) = 1.
Proof.
  intros R B A. rewrite (toplevel_block_discipline _ _ _ _ _ _ R B).
  assert (pending (todo f) = 0) as ->; [|reflexivity].
  induction A as [|[s0 e0] t Hx _ IH]; [reflexivity|].
  cbn [pending]. rewrite IH. cbn in Hx. subst. reflexivity.
Qed.
