(* C21 -- Wrap-in-dbg and add-type-annotation preserve behaviour (the wrap-in-dbg half).
   Statements only; proofs in RefactorProps.v and ScopeProps.v (the simulation, fuel monotonicity). Model: Scope.v (big-step
   reference semantics with stdout events EvOut and stderr events EvDbg) and Refactor.wrap_dbg (the selected expression e
   becomes dbg(e); positions are paths into the syntax tree, any function body or the main statements).
   add-type-annotation has no theorem here: it is covered by the search of tools/props/C21.py only. *)
From Coq Require Import List ZArith Bool Arith.
From Garden Require Import Scope Refactor ScopeProps RefactorProps.
Import ListNotations.

(* For every program and every position: if the program ends (with a value or with a Garden error) having produced the
   events out, the wrapped program ends in the same way (with twice the fuel: each inserted dbg adds one level of
   nesting); its event list is `out` with debug lines inserted (ext), hence the same stdout, and stderr only gains
   lines. *)
Theorem dbg_transparent : forall (pos : position) (p : program) (fuel : nat) (out : list event) (res : result),
  run fuel p = Some (out, res) ->
  exists out', run (2 * fuel) (wrap_dbg pos p) = Some (out', res)
               /\ ext out out' /\ stdout_of out' = stdout_of out
               /\ length (stderr_of out) <= length (stderr_of out').
Proof. exact dbg_transparent_thm. Qed.
Print Assumptions dbg_transparent.

(* what `ext` means for the two streams *)
Theorem ext_keeps_stdout : forall o o', ext o o' -> stdout_of o = stdout_of o'.
Proof. exact ext_stdout. Qed.
Print Assumptions ext_keeps_stdout.

(* more fuel never changes an outcome that is not OutOfFuel (so `2 * fuel` above can be any larger amount) *)
Theorem more_fuel_same_outcome : forall funs f f' r bl,
  f <= f' -> eval_block funs f r bl <> OutOfFuel -> eval_block funs f' r bl = eval_block funs f r bl.
Proof. exact eval_block_mono. Qed.
Print Assumptions more_fuel_same_outcome.

(* Non-vacuity: in  fun f(x) { let y = x + 1  if y > 2 { let y = y * 2  println(..y) }  let g = fun(z) { z + y }  g(3) }
   println(..f(5))  the captured y inside the closure body is wrapped: one debug line (6) appears between the two
   stdout lines. *)
Example example_dbg :
  run 30 ex_prog = Some ([EvOut (PInt 12); EvOut (PInt 9)], ROk PUnit) /\
  run 60 (wrap_dbg (Some 0, 2, [0; 1]) ex_prog) = Some ([EvOut (PInt 12); EvDbg (PInt 6); EvOut (PInt 9)], ROk PUnit).
Proof. exact ex_dbg_runs. Qed.
Print Assumptions example_dbg.
