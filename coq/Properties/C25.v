(* C25 -- Sandboxed runs always finish within their step budget.  PARTIAL:
   proved here: (1) both sandbox entry points set finite, positive tick and stack limits
   before evaluating anything, and the interpreter loop increments the tick counter on
   every expression step and tests both limits before `eval_expr` (shape facts
   regenerated from the Rust source on every run); (2) the abstract argument: a machine
   whose every step increments a counter and which stops once the counter reaches the
   limit takes at most `limit` steps -- and the refinement with frame pops that do not
   tick; (3) that bound on the evaluator model Machine.v: under a tick limit L a run never
   runs out of fuel once the fuel exceeds 2 * L + 1.  NOT proved: that a SINGLE step terminates and fits the native stack (built-ins
   written in Rust, recursive display / equality / drop of deeply nested values) --
   search only (tools/props/C25.py).
   Only statements here; proofs are in SandboxProps.v and MachineBound.v. *)
From Coq Require Import NArith List String Bool.
From Garden Require Import Sandbox SandboxProps gen.Builtins.
From Garden Require Machine MachineBound.
Import ListNotations.
Open Scope string_scope.
Open Scope nat_scope.

(* `playground-run` (sandboxed_playground.rs) and `sandboxed-test` (test_runner.rs) assign
   `Some(positive literal)` to env.tick_limit and env.stack_limit, once, before the first
   eval_* call of the function. *)
Theorem sandbox_limits_set :
  forall l, In l sandbox_entry_points ->
  exists t s, l_tick_limit l = Some t /\ (0 < t)%N /\ l_stack_limit l = Some s /\ (0 < s)%N /\
              l_enforce_sandbox l = Some true /\ l_set_before_eval l = true.
Proof. exact sandbox_limits_set_lemma. Qed.
Print Assumptions sandbox_limits_set.

Theorem sandbox_entry_points_listed :
  map l_file sandbox_entry_points = ["sandboxed_playground.rs"; "test_runner.rs"].
Proof. exact entry_points_are_the_two_sandbox_commands. Qed.
Print Assumptions sandbox_entry_points_listed.

(* `fn eval`: `exprs_to_eval.pop()` is immediately followed by `env.ticks += 1;`, then
   `if env.ticks >= tick_limit { .. return Err(ReachedTickLimit` and
   `if env.stack.0.len() > limit { .. return Err(ReachedStackLimit`, both before the single
   `eval_expr(` call; no other write to `ticks` than `+= 1` and the `= 0` in eval_tests (a
   fresh budget per test), and no assignment to the limits outside the two entry points
   anywhere in src/. *)
Theorem eval_loop_counts_and_checks : loop_ok eval_loop = true.
Proof. exact eval_loop_shape_lemma. Qed.
Print Assumptions eval_loop_counts_and_checks.

(* In any machine where every step increments a counter and the run stops when the
   counter has reached the limit, the run from s ends within `limit - ticks s` steps. *)
Theorem ticks_bound_terminates :
  forall (state : Type) (step : state -> option state) (ticks : state -> nat) (limit : nat),
  (forall s s', step s = Some s' -> ticks s' = S (ticks s)) ->
  (forall s, limit <= ticks s -> step s = None) ->
  forall s, halts_within state step (limit - ticks s) s.
Proof. exact ticks_bound_terminates_sec. Qed.
Print Assumptions ticks_bound_terminates.

(* The interpreter loop has a second kind of step, popping a finished stack frame, which
   does not tick.  With expression steps (ticks + 1, depth + at most 1, only while the new
   count is below the limit) and pop steps (depth - 1), no run is longer than
   2 * (limit - ticks) + depth steps. *)
Theorem ticks_and_frames_bound_run_length :
  forall (state : Type) (step : state -> option state) (ticks depth : state -> nat) (limit : nat),
  (forall s s', step s = Some s' ->
     (ticks s' = S (ticks s) /\ depth s' <= S (depth s) /\ ticks s' < limit) \/
     (ticks s' = ticks s /\ S (depth s') = depth s)) ->
  forall k s s', ticks s <= limit -> iter state step k s = Some s' ->
  k <= 2 * (limit - ticks s) + depth s.
Proof. exact run_length_bounded_sec. Qed.
Print Assumptions ticks_and_frames_bound_run_length.

(* Non-vacuity: a counter machine satisfies the hypotheses and halts within the limit. *)
Example ticks_bound_counter_machine :
  forall limit, halts_within nat (counter_step limit) (limit - 0) 0.
Proof. exact counter_machine_instance. Qed.
Print Assumptions ticks_bound_counter_machine.

(* ---- the same bound on the evaluator model itself (Machine.v, the model of the
   eval loop that is tied to eval.rs by differential execution): under a tick
   limit L a run from the initial state with fuel > 2 * L + 1 does not run out
   of fuel (so it makes at most 2 * L + 2 iterations of the eval loop), whatever
   the program.  Only ROutOfFuel is excluded, not RCrashed / RUnsupported. *)
Theorem sandbox_terminates : forall p L exprs sl fuel,
  2 * N.to_nat L + 1 < fuel ->
  match Machine.run p fuel (Machine.init_state exprs (Some L) sl) with
  | Machine.ROutOfFuel _ => False
  | _ => True
  end.
Proof. exact MachineBound.limited_run_finishes. Qed.
Print Assumptions sandbox_terminates.

Theorem sandbox_run_length : forall p L fuel s s',
  Machine.tick_limit s = Some L -> (Machine.ticks s <= L)%N ->
  Machine.run p fuel s = Machine.ROutOfFuel s' -> fuel <= MachineBound.potential L s.
Proof. exact MachineBound.run_bounded. Qed.
Print Assumptions sandbox_run_length.
