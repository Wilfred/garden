(* C25 on the evaluator model: with a tick limit every run ends (value, error,
   limit error) within 2 * limit + depth iterations of the eval loop: an iteration
   either pops a frame or spends a tick and pushes at most one frame. *)
From Coq Require Import NArith List Lia.
From Garden Require Import Machine.
Import ListNotations.
Open Scope nat_scope.

Definition potential (L : N) (s : state) : nat := 2 * (N.to_nat L - N.to_nat (ticks s)) + length (stack s).

Lemma step_next_potential p L s s' :
  tick_limit s = Some L -> (ticks s <= L)%N -> step p s = Next s' ->
  tick_limit s' = Some L /\ (ticks s' <= L)%N /\ potential L s' < potential L s.
Proof.
  unfold step, potential. intros TL LE H.
  destruct (stack s) as [|f rest] eqn:ES; [discriminate|].
  destruct (todo f) as [|[es e] t].
  - destruct rest as [|caller rest']; destruct (vals f) as [|v vs]; try discriminate.
    inversion H; subst. cbn. repeat split; auto. lia.
  - destruct (interrupted s); [discriminate|].
    rewrite TL in H. cbn [opt_le] in H.
    destruct (N.leb_spec L (ticks s + 1)) as [C|C]; [discriminate|].
    destruct (opt_lt (stack_limit s) (N.of_nat (length (f :: rest)))); [discriminate|].
    destruct (exec p (set_todo f t) es e); try discriminate; inversion H; subst; cbn; repeat split; auto; lia.
Qed.

Theorem run_bounded p L : forall fuel s s',
  tick_limit s = Some L -> (ticks s <= L)%N -> run p fuel s = ROutOfFuel s' -> fuel <= potential L s.
Proof.
  induction fuel as [|fuel IH]; intros s s' TL LE H; [lia|].
  cbn [run] in H. destruct (step p s) as [s1|v s1|e s1| |] eqn:ST; try discriminate.
  destruct (step_next_potential p L s s1 TL LE ST) as (TL1 & LE1 & PO).
  specialize (IH s1 s' TL1 LE1 H). lia.
Qed.

Theorem limited_run_finishes p L exprs sl fuel :
  2 * N.to_nat L + 1 < fuel ->
  match run p fuel (init_state exprs (Some L) sl) with ROutOfFuel _ => False | _ => True end.
Proof.
  intros F. destruct (run p fuel (init_state exprs (Some L) sl)) as [| | | |s'] eqn:R; auto.
  apply (run_bounded p L) in R; [|reflexivity|cbn; lia].
  unfold potential, init_state in R. cbn in R. lia.
Qed.
