(* C19 -- Rename changes exactly the occurrences of one variable.
   Statements only; proofs in RefactorProps.v. Model: Scope.v (syntax with occurrence ids, lexical resolution,
   big-step reference semantics) and Refactor.v (rename). The model is tied to src/rename.rs and the resolution of
   src/checks/type_checker.rs by differential execution (tools/props/C19.py: extracted rename vs `garden reftest-rename`
   on the same programs at every occurrence).

   Constructs covered by the model: integer and boolean literals, variables, binary operators, calls, closures
   (`fun(x) { .. }`, capture by value), `if c { .. } else { .. }` blocks, `dbg`, `println`, `let`, assignment, `while`,
   top-level functions with parameters. The binder b of rename_fresh_preserves is a local: a `let`, a closure parameter
   or a function parameter. *)
From Coq Require Import List ZArith Bool Arith.
From Garden Require Import Scope Refactor ScopeProps RefactorProps.
Import ListNotations.

(* The renamed program has the same occurrences (same ids, same order); an occurrence is called `new` exactly when it
   refers to the binder b -- the binder itself (resolve p b = Some b) and the uses u with resolve p u = Some b -- and
   every other occurrence keeps its name. *)
Theorem rename_exact : forall (p : program) (b : oid) (new : name),
  NoDup (map fst (occ_prog p)) ->
  occ_prog (rename b new p)
  = map (fun ox => (fst ox, if oo_eqb (resolve p (fst ox)) (Some b) then new else snd ox)) (occ_prog p).
Proof. exact rename_exact_thm. Qed.
Print Assumptions rename_exact.

Theorem rename_exact_sets : forall (p : program) (b : oid) (new : name) (o : oid) (x : name),
  NoDup (map fst (occ_prog p)) -> In (o, x) (occ_prog p) ->
  (resolve p o = Some b -> In (o, new) (occ_prog (rename b new p))) /\
  (resolve p o <> Some b -> In (o, x) (occ_prog (rename b new p))).
Proof. exact rename_exact_set. Qed.
Print Assumptions rename_exact_sets.

(* Renaming a local binder (occurrence id b, currently called xb) to a name that does not occur anywhere in the program
   gives a program that prints the same and ends with the same result, for every fuel (in particular it runs out of
   fuel exactly when the original does). *)
Theorem rename_fresh_preserves : forall (p : program) (b : oid) (xb new : name),
  NoDup (map fst (occ_prog p)) ->
  In (b, xb) (occ_prog p) ->
  (forall fd, In fd (fst p) -> fd_id fd <> b) ->
  ~ In new (map snd (occ_prog p)) ->
  forall fuel, run fuel (rename b new p) = run fuel p.
Proof. exact rename_fresh_preserves_thm. Qed.
Print Assumptions rename_fresh_preserves.

(* The resolution table (which binder every occurrence refers to) of the renamed program is the table of the original
   program -- also when b is a top-level function. *)
Theorem rename_preserves_resolution : forall (p : program) (b : oid) (xb new : name),
  NoDup (map fst (occ_prog p)) ->
  In (b, xb) (occ_prog p) ->
  ~ In new (map snd (occ_prog p)) ->
  res_prog (rename b new p) = res_prog p.
Proof. exact rename_preserves_resolution_thm. Qed.
Print Assumptions rename_preserves_resolution.

(* Non-vacuity: a program with shadowing and a capturing closure
     fun f(x) { let y = x + 1  if y > 2 { let y = y * 2  println(string_repr(y)) }  let g = fun(z) { z + y }  g(3) }
     println(string_repr(f(5)))
   (14 occurrences, ids 1..9 and 11..15 in source order; names x=0 y=1 z=2 g=3 f=10). *)
Example example_resolution :
  map (resolve ex_prog) [3; 5; 7; 6; 8; 13; 4; 12; 14; 15; 77]
  = [Some 3; Some 3; Some 3; Some 6; Some 6; Some 3; Some 2; Some 11; Some 9; Some 1; None].
Proof. exact ex_resolution. Qed.
Print Assumptions example_resolution.

Example example_rename_outer_y :
  occ_prog (rename 3 99 ex_prog)
  = [(1, 10); (2, 0); (3, 99); (4, 0); (5, 99); (6, 1); (7, 99); (8, 1); (9, 3); (11, 2); (12, 2); (13, 99); (14, 3); (15, 10)].
Proof. exact ex_rename_occurrences. Qed.
Print Assumptions example_rename_outer_y.

Example example_hypotheses_hold :
  NoDup (map fst (occ_prog ex_prog)) /\ In (3, 1) (occ_prog ex_prog) /\
  (forall fd, In fd (fst ex_prog) -> fd_id fd <> 3) /\ ~ In 99 (map snd (occ_prog ex_prog)).
Proof. exact ex_hypotheses. Qed.
Print Assumptions example_hypotheses_hold.

Example example_runs :
  run 30 ex_prog = Some ([EvOut (PInt 12); EvOut (PInt 9)], ROk PUnit) /\
  run 30 (rename 3 99 ex_prog) = Some ([EvOut (PInt 12); EvOut (PInt 9)], ROk PUnit).
Proof. exact ex_runs. Qed.
Print Assumptions example_runs.
