(* EditAlgebra.kstep is Lex.lex_step with the positions erased, so klex is the
   item sequence of the lexer loop; a step that ends inside a text is the same
   whatever follows that text, provided what follows cannot glue to it
   (kstep_local); hence a whitespace splice that passes gap_ok keeps lex_items,
   the per-line indentation edits being an instance (C17).  Then the
   final-newline phase and the fixed points of a gap-normalising phase (C18). *)
From Coq Require Import NArith Bool List Lia PeanoNat.
From Garden Require Import Base.Utf Base.UtfProps Lex LexProps EditAlgebra.
Import ListNotations.
Open Scope N_scope.

Definition agrees (s : list N) (st : step) (ks : option (kind * list N)) : Prop :=
  exists k t r, ks = Some (k, t) /\ s = t ++ r /\ t <> [] /\
    match st with
    | SSkip n => k = KSkip /\ n = blen t
    | SComment _ t' n => k = KComment /\ t' = t /\ n = blen t
    | SToken _ t' n => k = KToken /\ t' = t /\ n = blen t
    | SErrToken _ _ _ t' n => k = KErrToken /\ t' = t /\ n = blen t
    | SErr _ _ n => k = KErr /\ n = blen t
    | _ => False
    end.

Lemma kstep_agrees : forall p s, s <> [] ->
  agrees s (lex_step cfg_fixed (p ++ s) (blen p)) (kstep s).
Proof.
  intros p s Hs. destruct (lex_step_kstep p s Hs) as (k & t & r & Es & Ht & Ek & ->).
  exists k, t, r. now destruct k.
Qed.

Lemma kstep_nil : kstep [] = None.
Proof. reflexivity. Qed.

Lemma skipn_app_len : forall (t r : list N), skipn (length t) (t ++ r) = r.
Proof. induction t as [|c t IH]; intro r; [reflexivity|]. cbn [length app skipn]. apply IH. Qed.

Lemma kstep_shorter : forall s k t, kstep s = Some (k, t) -> (length (skipn (length t) s) < length s)%nat.
Proof.
  intros s k t H. destruct (kstep_prefix _ _ _ H) as (r & -> & Ht).
  rewrite skipn_app_len, app_length. destruct t; [congruence|cbn [length]; lia].
Qed.

Lemma items_cons_tok : forall ps t pc r,
  items_of_result (cons_tok (mktoken ps t pc) r) =
  option_map (fun l => map com_item pc ++ ITok t :: l) (items_of_result r).
Proof.
  intros ps t pc [ts tr es| |]; cbn [cons_tok items_of_result option_map]; try reflexivity.
  cbn [flat_map]. unfold tok_items at 1. cbn [tcomments ttext]. now rewrite <- !app_assoc.
Qed.

Lemma items_cons_err : forall e r, items_of_result (cons_err e r) = items_of_result r.
Proof. intros e [ts tr es| |]; reflexivity. Qed.

Lemma option_map_app_cons : forall (pc : list item) (x : item) (o : option (list item)),
  option_map (fun l => pc ++ x :: l) o = option_map (app pc) (option_map (cons x) o).
Proof. intros pc x [l|]; reflexivity. Qed.

Lemma klex_bridge : forall fuel p s pc, (length s < fuel)%nat ->
  items_of_result (lex_loop cfg_fixed fuel (p ++ s) (blen (p ++ s)) (blen p) pc)
  = option_map (app (map com_item pc)) (klex fuel s).
Proof.
  induction fuel as [|f IH]; intros p s pc L; [lia|].
  cbn [lex_loop klex].
  destruct s as [|c s'].
  - rewrite app_nil_r, N.ltb_irrefl. cbn [items_of_result flat_map option_map app]. now rewrite app_nil_r.
  - rewrite blen_lt_app by discriminate.
    destruct (lex_step_kstep p (c :: s')) as (k & t & r & Es & Ht & -> & ->); [discriminate|].
    assert (K : forall pc',
      items_of_result (lex_loop cfg_fixed f (p ++ c :: s') (blen (p ++ c :: s')) (blen p + blen t) pc')
      = option_map (app (map com_item pc')) (klex f (skipn (length t) (c :: s')))).
    { intro pc'. rewrite Es, skipn_app_len, <- blen_app, app_assoc. apply IH.
      apply (f_equal (@length N)) in Es. rewrite app_length in Es.
      destruct t; [congruence|]. cbn [length] in *. lia. }
    destruct k; cbn [step_of]; rewrite ?items_cons_err, ?items_cons_tok, K; try reflexivity.
    + rewrite map_app. cbn [map]. unfold com_item at 2. cbn [snd].
      destruct (klex f (skipn (length t) (c :: s'))) as [l|]; cbn [option_map]; [|reflexivity].
      now rewrite <- app_assoc.
    + cbn [map app]. now destruct (klex f (skipn (length t) (c :: s'))).
    + cbn [map app]. now destruct (klex f (skipn (length t) (c :: s'))).
Qed.

Definition klex_all (s : list N) : option (list item) := klex (S (length s)) s.

(* without a shebang line the lexer starts at offset 0 *)
Lemma lex_items_klex : forall src, stops (fun c => c =? HASH) src -> lex_items src = klex_all src.
Proof.
  intros src H. unfold lex_items, lex, lex_with, klex_all.
  assert (E : shebang_skip src = 0).
  { destruct src as [|c r]; [reflexivity|]. cbn [shebang_skip]. now rewrite H. }
  rewrite E. pose proof (klex_bridge (S (length src)) [] src [] (le_n _)) as B.
  cbn [app blen map] in B. rewrite B. now destruct (klex (S (length src)) src).
Qed.

Lemma klex_fuel : forall f1 f2 s, (length s < f1)%nat -> (length s < f2)%nat -> klex f1 s = klex f2 s.
Proof.
  induction f1 as [|f1 IH]; intros f2 s L1 L2; [lia|]. destruct f2 as [|f2]; [lia|].
  cbn [klex]. destruct s as [|c s']; [reflexivity|].
  destruct (kstep (c :: s')) as [[k t]|] eqn:Ek; [|reflexivity].
  pose proof (kstep_shorter _ _ _ Ek) as L.
  rewrite (IH f2 (skipn (length t) (c :: s'))) by lia. reflexivity.
Qed.

Definition item_of (k : kind) (t : list N) (o : option (list item)) : option (list item) :=
  match k with
  | KSkip | KErr => o
  | KComment => option_map (cons (ICom t)) o
  | KToken | KErrToken => option_map (cons (ITok t)) o
  end.

Lemma klex_step : forall s k t, kstep s = Some (k, t) ->
  klex_all s = item_of k t (klex_all (skipn (length t) s)).
Proof.
  intros s k t Ek. unfold klex_all at 1. cbn [klex].
  destruct s as [|c s']; [discriminate|]. rewrite Ek.
  pose proof (kstep_shorter _ _ _ Ek) as L.
  unfold klex_all. rewrite (klex_fuel (length (c :: s')) (S (length (skipn (length t) (c :: s'))))) by lia.
  destruct k; reflexivity.
Qed.

Lemma klex_ws : forall w post, all_ws w = true -> klex_all (w ++ post) = klex_all post.
Proof.
  induction w as [|c w IH]; intros post H; [reflexivity|].
  cbn [all_ws forallb] in H. apply andb_prop in H as [Hc Hw]. cbn [app].
  rewrite (klex_step _ _ _ (kstep_ws c (w ++ post) Hc)). cbn [item_of length skipn]. now apply IH.
Qed.

Definition sstop (c : N) : Prop := is_sym_char c = false /\ (c =? DOT) = false.
Definition sstop_tail (A : list N) : Prop := match A with [] => True | c :: _ => sstop c end.

Lemma sstop_digit : forall c, sstop c -> is_digit c = false /\ is_digit_us c = false.
Proof.
  intros c [H _]. unfold is_sym_char, is_sym_start in H. apply orb_false_elim in H as [Hs Hd].
  apply orb_false_elim in Hs as [_ Hu]. unfold is_digit_us. now rewrite Hd, Hu.
Qed.

Lemma scan_digits_local : forall v A B, sstop_tail B ->
  match scan_digits (v ++ A) with
  | Some (a, r) => (length a <= length v)%nat ->
                   exists r0, v = a ++ r0 /\ r = r0 ++ A /\ scan_digits (v ++ B) = Some (a, r0 ++ B)
  | None => scan_digits (v ++ B) = None
  end.
Proof.
  intros [|c v] A B HB; cbn [app].
  - assert (EB : scan_digits B = None).
    { destruct B as [|b B]; [reflexivity|]. cbn [scan_digits]. now destruct (sstop_digit b HB) as [-> _]. }
    destruct (scan_digits A) as [[a r]|] eqn:E; [|exact EB].
    destruct (scan_digits_spec _ _ _ E) as (_ & Ha & _). destruct a; [congruence|cbn [length]; lia].
  - cbn [scan_digits]. destruct (is_digit c); [|reflexivity].
    destruct (span is_digit_us (v ++ A)) as [a r] eqn:E. cbn [length]. intro L.
    destruct (span_local is_digit_us v A B) as (a' & r0 & -> & E1 & ->).
    + destruct B as [|b B]; [exact I|]. exact (proj2 (sstop_digit b HB)).
    + rewrite E. cbn [fst]. lia.
    + rewrite E in E1. injection E1 as -> ->. now exists r0.
Qed.

(* INTEGER_RE and FLOAT_RE after the optional sign, and FLOAT_RE after the integer part *)
Definition integer_body (sign v : list N) : option (list N) :=
  match scan_digits v with Some (a, _) => Some (sign ++ a) | None => None end.
Definition float_tail (sign a r1 : list N) : option (list N) :=
  match r1 with
  | d :: r2 =>
    if d =? DOT then
      match scan_digits r2 with
      | Some (b, _) => Some (sign ++ a ++ DOT :: b)
      | None => None
      end
    else None
  | [] => None
  end.
Definition float_body (sign v : list N) : option (list N) :=
  match scan_digits v with Some (a, r1) => float_tail sign a r1 | None => None end.

Lemma float_tail_longer : forall sign a r1 t, float_tail sign a r1 = Some t ->
  (length sign + length a < length t)%nat.
Proof.
  intros sign a [|d r2] t H; [discriminate|]. cbn [float_tail] in H.
  destruct (d =? DOT); [|discriminate]. destruct (scan_digits r2) as [[b rb]|]; [|discriminate].
  injection H as <-. rewrite !app_length. cbn [length]. lia.
Qed.

Lemma float_tail_local : forall sign a r0 A B, sstop_tail B ->
  match float_tail sign a (r0 ++ A) with
  | Some t => (length t <= length sign + length a + length r0)%nat -> float_tail sign a (r0 ++ B) = Some t
  | None => float_tail sign a (r0 ++ B) = None
  end.
Proof.
  intros sign a [|d r2] A B HB; cbn [app].
  - assert (EB : float_tail sign a B = None).
    { destruct B as [|b B]; [reflexivity|]. cbn [float_tail]. destruct HB as [_ D]. now rewrite D. }
    destruct (float_tail sign a A) as [t|] eqn:E; [|exact EB].
    apply float_tail_longer in E. cbn [length]. lia.
  - cbn [float_tail]. destruct (d =? DOT); [|reflexivity].
    pose proof (scan_digits_local r2 A B HB) as H.
    destruct (scan_digits (r2 ++ A)) as [[b rb]|]; [|now rewrite H].
    rewrite !app_length. cbn [length]. intro L. destruct H as (r3 & _ & _ & ->); [lia|reflexivity].
Qed.

(* The two number scanners together, as kstep tries them: when FLOAT_RE fails, the
   integer part is the token, so it may be taken to lie inside v. *)
Lemma number_body_local : forall sign v A B, sstop_tail B ->
  let fit t := (length t <= length sign + length v)%nat in
  match float_body sign (v ++ A), integer_body sign (v ++ A) with
  | Some t, _ => fit t -> float_body sign (v ++ B) = Some t
  | None, Some t => fit t -> float_body sign (v ++ B) = None /\ integer_body sign (v ++ B) = Some t
  | None, None => float_body sign (v ++ B) = None /\ integer_body sign (v ++ B) = None
  end.
Proof.
  intros sign v A B HB fit. unfold fit, float_body, integer_body.
  pose proof (scan_digits_local v A B HB) as H.
  destruct (scan_digits (v ++ A)) as [[a r]|]; [|now rewrite H].
  destruct (float_tail sign a r) as [t|] eqn:Ft; intro L.
  - pose proof (float_tail_longer _ _ _ _ Ft) as Lt.
    destruct H as (r0 & -> & -> & ->); [lia|].
    pose proof (float_tail_local sign a r0 A B HB) as T. rewrite Ft in T. apply T.
    rewrite app_length in L. lia.
  - rewrite app_length in L. destruct H as (r0 & -> & -> & ->); [lia|].
    pose proof (float_tail_local sign a r0 A B HB) as T. rewrite Ft in T. now rewrite T.
Qed.

Lemma number_local : forall u A B, u <> [] -> sstop_tail B ->
  let fit t := (length t <= length u)%nat in
  match float_re (u ++ A), integer_re (u ++ A) with
  | Some t, _ => fit t -> float_re (u ++ B) = Some t
  | None, Some t => fit t -> float_re (u ++ B) = None /\ integer_re (u ++ B) = Some t
  | None, None => float_re (u ++ B) = None /\ integer_re (u ++ B) = None
  end.
Proof.
  intros [|x u] A B Hu HB; [congruence|]. unfold float_re, integer_re. cbn [app opt_minus].
  destruct (x =? MINUS); [exact (number_body_local [MINUS] u A B HB)|exact (number_body_local [] (x :: u) A B HB)].
Qed.

Lemma symbol_re_local : forall u A B, u <> [] -> sstop_tail B ->
  match symbol_re (u ++ A) with
  | Some t => (length t <= length u)%nat -> symbol_re (u ++ B) = Some t
  | None => symbol_re (u ++ B) = None
  end.
Proof.
  intros [|x u] A B Hu HB; [congruence|]. cbn [app symbol_re].
  destruct (is_sym_start x); [|reflexivity]. cbn [length]. intro L.
  destruct (span_local is_sym_char u A B) as (a & r & _ & -> & ->); [|lia|reflexivity].
  destruct B as [|b B]; [exact I|]. exact (proj1 HB).
Qed.

Lemma float_tail_stop : forall b A, sstop_tail A ->
  match b ++ A with
  | d :: r2 => if d =? DOT then match scan_digits r2 with Some (b0, _) => Some b0 | None => None end else None
  | [] => None
  end =
  match b with
  | d :: r2 => if d =? DOT then match scan_digits r2 with Some (b0, _) => Some b0 | None => None end else None
  | [] => None
  end.
Proof.
  intros b A H. destruct b as [|d b]; cbn [app].
  - destruct A as [|c r]; [reflexivity|]. destruct H as [_ D]. now rewrite D.
  - destruct (d =? DOT); [|reflexivity]. pose proof (scan_digits_local b [] A H) as L. rewrite app_nil_r in L.
    destruct (scan_digits b) as [[x y]|] eqn:E; [|now rewrite L].
    destruct (scan_digits_spec _ _ _ E) as (Eb & _). destruct L as (r0 & _ & _ & ->); [|reflexivity].
    rewrite Eb, app_length. lia.
Qed.

Lemma stop_facts : forall c, stop c = true -> sstop c /\ pair_second c = false /\ (c =? SLASH) = false.
Proof.
  intros c H. unfold stop in H. apply andb_prop in H as [H P]. apply andb_prop in H as [S D].
  apply negb_true_iff in S, D, P. repeat split; try assumption.
  unfold pair_second in P. cbn [existsb] in P.
  repeat (apply orb_false_elim in P as [? P]). assumption.
Qed.

Definition pair_hit (s : list N) : bool :=
  existsb (fun ab => starts_with2 (fst ab) (snd ab) s) two_char_tokens.

Lemma pair_hit_tail : forall x y r r', pair_hit (x :: y :: r) = pair_hit (x :: y :: r').
Proof. reflexivity. Qed.

Lemma two_char_seconds :
  forallb (fun ab => pair_second (snd ab) && negb (snd ab =? SLASH)) two_char_tokens = true.
Proof. reflexivity. Qed.

Lemma pair_hit_second : forall x y r, pair_second y = false \/ y = SLASH -> pair_hit (x :: y :: r) = false.
Proof.
  intros x y r H. destruct (pair_hit (x :: y :: r)) eqn:E; [exfalso|reflexivity].
  apply existsb_exists in E as ([a b] & Hin & Hs). cbn [starts_with2 fst snd] in Hs.
  apply andb_prop in Hs as [_ Hy]. apply N.eqb_eq in Hy. subst y.
  pose proof two_char_seconds as T. rewrite forallb_forall in T. specialize (T _ Hin). cbn [snd] in T.
  apply andb_prop in T as [T1 T2]. destruct H as [P| ->]; [congruence|discriminate T2].
Qed.

Definition stopt (B : list N) : bool := match B with [] => true | b :: _ => stop b end.

(* B may follow a text in place of A without glueing to it: B starts with a char
   no token can absorb (or is empty), or both start with the `/` that may
   continue a comment start *)
Definition glue_free (A B : list N) : Prop :=
  stopt B = true \/ exists ra rb, A = SLASH :: ra /\ B = SLASH :: rb.

Lemma glue_free_facts : forall A B, glue_free A B ->
  sstop_tail B /\ (forall x, pair_hit (x :: B) = false) /\
  (forall x, starts_with2 SLASH SLASH (x :: A) = false -> starts_with2 SLASH SLASH (x :: B) = false).
Proof.
  intros A B [H|(ra & rb & -> & ->)].
  - destruct B as [|b rb]; [now repeat split|]. destruct (stop_facts b H) as (S & P & Sl).
    split; [exact S|]. split; intro x; [apply pair_hit_second; now left|].
    intros _. cbn [starts_with2]. rewrite Sl. apply andb_false_r.
  - split; [split; reflexivity|]. split; intro x; [apply pair_hit_second; now right|]. intro E. exact E.
Qed.

Lemma tails_ok_glue_free : forall A B, tails_ok A B = true -> glue_free A B.
Proof.
  intros [|a ra] [|b rb] H; cbn [tails_ok] in H; try (now left).
  apply orb_prop in H as [H|H]; apply andb_prop in H as [Ha Hb]; [now left|].
  apply N.eqb_eq in Ha, Hb. subst. right. now exists ra, rb.
Qed.

Lemma comment_len : forall s, starts_with2 SLASH SLASH s = true -> (2 <= length (upto_lf s))%nat.
Proof.
  intros [|x [|y r]] H; try discriminate. cbn [starts_with2] in H. apply andb_prop in H as [Hx Hy].
  apply N.eqb_eq in Hx, Hy. subst. cbn. lia.
Qed.

Lemma upto_lf_fit : forall u A B, ends_lf (upto_lf (u ++ A)) = true ->
  (length (upto_lf (u ++ A)) <= length u)%nat -> upto_lf (u ++ B) = upto_lf (u ++ A).
Proof.
  induction u as [|x u IH]; intros A B E L.
  - cbn [app length] in L, E. destruct (upto_lf A); [discriminate E|cbn [length] in L; lia].
  - cbn [app upto_lf] in *. destruct (x =? LF) eqn:Ex; [reflexivity|].
    cbn [length] in L. f_equal. apply IH; [|lia].
    cbn [ends_lf] in E. destruct (upto_lf (u ++ A)) as [|z l] eqn:Eu; [|exact E].
    rewrite Ex in E. discriminate.
Qed.

Lemma closed_body_go_scan : forall n b B, closed_body_go n b = true -> string_body true (b ++ B) = b.
Proof.
  induction n as [|n IH]; intros b B H; [discriminate|]. cbn [closed_body_go] in H.
  destruct b as [|c r]; [discriminate|]. cbn [app string_body].
  destruct (N.eqb_spec c QUOTE) as [->|Hq].
  - destruct r; [reflexivity|discriminate].
  - destruct (c =? BACKSLASH).
    + destruct r as [|d r']; [discriminate|]. cbn [app]. destruct (negb (d =? LF)).
      * rewrite (IH r' B H). reflexivity.
      * change (d :: r' ++ B) with ((d :: r') ++ B). rewrite (IH (d :: r') B H). reflexivity.
    + rewrite (IH r B H). reflexivity.
Qed.

Lemma closed_body_scan : forall b B, closed_body b = true -> string_body true (b ++ B) = b.
Proof. intros b B H. exact (closed_body_go_scan _ b B H). Qed.

Lemma string_re_fit : forall u A B text, u <> [] ->
  string_re true (u ++ A) = Some text -> step_ok_k KToken text = true ->
  (length text <= length u)%nat -> string_re true (u ++ B) = Some text.
Proof.
  intros u A B text Hu H Hok L. destruct u as [|x u]; [congruence|]. cbn [app string_re] in *.
  destruct (x =? QUOTE) eqn:Ex; [|discriminate]. injection H as <-.
  cbn in Hok. cbn [length] in L.
  destruct (string_body_prefix true (u ++ A)) as (r & Er). symmetry in Er.
  destruct (app_prefix_len _ _ _ _ Er) as (u2 & Eu & _); [lia|].
  rewrite Eu at 1. rewrite <- app_assoc. now rewrite closed_body_scan.
Qed.

Lemma string_re_head : forall u A B, u <> [] -> string_re true (u ++ A) = None -> string_re true (u ++ B) = None.
Proof.
  intros [|x u] A B Hu H; [congruence|]. cbn [app string_re] in *. now destruct (x =? QUOTE).
Qed.

Lemma kstep_local : forall u A B k t, u <> [] -> glue_free A B ->
  kstep (u ++ A) = Some (k, t) -> (length t <= length u)%nat -> step_ok_k k t = true ->
  kstep (u ++ B) = Some (k, t).
Proof.
  intros u A B k t Hu HT H Hfit Hok.
  destruct (glue_free_facts A B HT) as (SB & PB & CB).
  pose proof (number_local u A B Hu SB) as Nu. pose proof (symbol_re_local u A B Hu SB) as Sy.
  unfold kstep in H |- *. fold (pair_hit (u ++ A)) in H. fold (pair_hit (u ++ B)).
  destruct (starts_with2 SLASH SLASH (u ++ A)) eqn:CA.
  { (* a comment that ends inside u has its two slashes and its line feed there *)
    injection H as <- <-. cbn [step_ok_k] in Hok. pose proof (comment_len _ CA) as L2.
    assert (CB' : starts_with2 SLASH SLASH (u ++ B) = true).
    { destruct u as [|x [|y u]]; [now elim Hu|cbn [length] in Hfit; lia|exact CA]. }
    rewrite CB'. now rewrite (upto_lf_fit u A B Hok Hfit). }
  assert (CB' : starts_with2 SLASH SLASH (u ++ B) = false).
  { destruct u as [|x [|y u]]; [now elim Hu|exact (CB x CA)|exact CA]. }
  rewrite CB'. destruct u as [|x u']; [now elim Hu|]. cbn [app] in H |- *.
  destruct (is_whitespace x); [exact H|].
  destruct (pair_hit (x :: u' ++ A)) eqn:PA.
  { destruct u' as [|y u''].
    - cbn [app] in H. destruct A as [|a ra]; [discriminate|]. injection H as <- <-. cbn [length] in Hfit. lia.
    - cbn [app] in *. rewrite (pair_hit_tail x y _ (u'' ++ A)), PA. exact H. }
  assert (PB' : pair_hit (x :: u' ++ B) = false).
  { destruct u' as [|y u'']; [exact (PB x)|]. cbn [app] in *. now rewrite (pair_hit_tail x y _ (u'' ++ A)). }
  rewrite PB'.
  change (x :: u' ++ A) with ((x :: u') ++ A) in *. change (x :: u' ++ B) with ((x :: u') ++ B).
  destruct (float_re ((x :: u') ++ A)) as [m|].
  { injection H as <- <-. now rewrite (Nu Hfit). }
  destruct (integer_re ((x :: u') ++ A)) as [m|].
  { injection H as <- <-. now destruct (Nu Hfit) as [-> ->]. }
  destruct Nu as [-> ->].
  destruct (existsb (N.eqb x) one_char_tokens); [exact H|].
  destruct (string_re true ((x :: u') ++ A)) as [text|] eqn:SA.
  { destruct (ends_with_quote text) eqn:Q; injection H as <- <-; [|discriminate Hok].
    rewrite (string_re_fit (x :: u') A B text Hu SA Hok Hfit). now rewrite Q. }
  rewrite (string_re_head (x :: u') A B Hu SA).
  destruct (symbol_re ((x :: u') ++ A)) as [m|].
  { injection H as <- <-. now rewrite (Sy Hfit). }
  now rewrite Sy.
Qed.

Lemma krun_transfer : forall f u A B steps, glue_free A B ->
  krun f u A = Some steps -> krun f u B = Some steps.
Proof.
  induction f as [|f IH]; intros u A B steps HT H; destruct u as [|x u']; cbn [krun] in *;
    try exact H; try discriminate.
  destruct (kstep ((x :: u') ++ A)) as [[k t]|] eqn:EA; [|discriminate].
  destruct (Nat.leb (length t) (length (x :: u')) && step_ok_k k t) eqn:C; [|discriminate].
  pose proof C as C'. apply andb_prop in C' as [L Hok]. apply Nat.leb_le in L.
  assert (Hu : x :: u' <> []) by discriminate.
  rewrite (kstep_local (x :: u') A B k t Hu HT EA L Hok), C.
  destruct (krun f (skipn (length t) (x :: u')) A) as [rest|] eqn:R; [|discriminate].
  rewrite (IH _ A B rest HT R). exact H.
Qed.

Definition items_of_steps (steps : list (kind * list N)) (o : option (list item)) : option (list item) :=
  fold_right (fun st acc => item_of (fst st) (snd st) acc) o steps.

Lemma klex_run : forall f u A steps, krun f u A = Some steps ->
  klex_all (u ++ A) = items_of_steps steps (klex_all A).
Proof.
  induction f as [|f IH]; intros u A steps H; destruct u as [|x u']; cbn [krun] in H;
    try discriminate; try (injection H as <-; reflexivity).
  destruct (kstep ((x :: u') ++ A)) as [[k t]|] eqn:EA; [|discriminate].
  destruct (Nat.leb (length t) (length (x :: u')) && step_ok_k k t) eqn:C; [|discriminate].
  apply andb_prop in C as [L _]. apply Nat.leb_le in L.
  destruct (krun f (skipn (length t) (x :: u')) A) as [rest|] eqn:R; [|discriminate].
  injection H as <-. rewrite (klex_step _ _ _ EA). cbn [items_of_steps fold_right fst snd].
  rewrite skipn_app. replace (length t - length (x :: u'))%nat with O by lia. cbn [skipn].
  now rewrite (IH _ _ _ R).
Qed.

Lemma krun_nil : forall f u A, krun f u A = Some [] -> u = [].
Proof.
  intros f [|x u] A H; [reflexivity|]. destruct f; cbn [krun] in H; [discriminate|].
  destruct (kstep ((x :: u) ++ A)) as [[k t]|]; [|discriminate].
  destruct (Nat.leb _ _ && _); [|discriminate].
  destruct (krun f _ A); discriminate.
Qed.

Lemma list_eqb_eq : forall a b, list_eqb a b = true -> a = b.
Proof. intros a b H. unfold list_eqb in H. now destruct (list_eq_dec N.eq_dec a b). Qed.

Lemma kind_eqb_eq : forall a b, kind_eqb a b = true -> a = b.
Proof. intros [] []; cbn; intro H; try reflexivity; discriminate. Qed.

Lemma same_step_spec : forall k tl X, same_step k tl X = true -> kstep (tl ++ X) = Some (k, tl).
Proof.
  intros k tl X H. unfold same_step in H. destruct (kstep (tl ++ X)) as [[k' t']|]; [|discriminate].
  apply andb_prop in H as [E K]. apply list_eqb_eq in E. apply kind_eqb_eq in K. now subst.
Qed.

Lemma head_not_hash : forall pre w post, all_ws w = true -> sheb_ok pre post = true ->
  stops (fun c => c =? HASH) (pre ++ w ++ post).
Proof.
  intros [|c pre] w post Hw H; cbn [app sheb_ok] in *.
  - destruct w as [|x w]; cbn [app].
    + destruct post; [exact I|]. now apply negb_true_iff in H.
    + cbn [all_ws forallb] in Hw. apply andb_prop in Hw as [Hx _]. cbn [stops].
      destruct (N.eqb_spec x HASH) as [->|]; [discriminate Hx|reflexivity].
  - now apply negb_true_iff in H.
Qed.

Lemma klex_transfer : forall f u A B steps, krun f u A = Some steps -> glue_free A B ->
  klex_all A = klex_all B -> klex_all (u ++ A) = klex_all (u ++ B).
Proof.
  intros f u A B steps R HT E.
  now rewrite (klex_run _ _ _ _ R), (klex_run _ _ _ _ (krun_transfer _ _ _ _ _ HT R)), E.
Qed.

Lemma splice_in_gap_lemma : forall pre w rep post, gap_ok pre w rep post = true ->
  lex_items (pre ++ rep ++ post) = lex_items (pre ++ w ++ post).
Proof.
  intros pre w rep post H. unfold gap_ok in H.
  apply andb_prop in H as [H Hm]. apply andb_prop in H as [H Hs]. apply andb_prop in H as [Hw Hr].
  rewrite (lex_items_klex _ (head_not_hash pre rep post Hr Hs)).
  rewrite (lex_items_klex _ (head_not_hash pre w post Hw Hs)). symmetry.
  destruct (krun (S (length pre)) pre (w ++ post)) as [steps|] eqn:R; [|discriminate].
  apply orb_prop in Hm as [HT|Hm].
  - apply (klex_transfer _ _ _ _ _ R (tails_ok_glue_free _ _ HT)). now rewrite !klex_ws.
  - destruct (rev steps) as [|[k tl] rs] eqn:Er.
    + assert (steps = []) by (rewrite <- (rev_involutive steps), Er; reflexivity). subst steps.
      rewrite (krun_nil _ _ _ R). cbn [app]. now rewrite !klex_ws.
    + (* the same, with the last step before the edit counted to what follows *)
      apply andb_prop in Hm as [Hm SB]. apply andb_prop in Hm as [Hm SA].
      apply andb_prop in Hm as [Hm HT]. apply andb_prop in Hm as [Ep R0].
      apply list_eqb_eq in Ep. set (pre0 := firstn (length pre - length tl) pre) in *.
      destruct (krun (S (length pre)) pre0 (tl ++ w ++ post)) as [s0|] eqn:R0'; [|discriminate].
      rewrite Ep, <- !app_assoc. apply (klex_transfer _ _ _ _ _ R0' (tails_ok_glue_free _ _ HT)).
      rewrite (klex_step _ _ _ (same_step_spec _ _ _ SA)), (klex_step _ _ _ (same_step_spec _ _ _ SB)).
      rewrite !skipn_app_len. now rewrite !klex_ws.
Qed.

Lemma splice_in_gap_edit : forall src e, gap_edit_ok src e = true ->
  exists src', splice src e = Some src' /\ lex_items src' = lex_items src.
Proof.
  intros src e H. unfold gap_edit_ok in H. unfold splice.
  destruct (e_end e <? e_start e); [discriminate|].
  destruct (split_bytes src (e_start e)) as [[pre q]|] eqn:E1; [|discriminate].
  destruct (split_bytes q (e_end e - e_start e)) as [[w post]|] eqn:E2; [|discriminate].
  destruct (split_bytes_sound _ _ _ _ E1) as [-> _]. destruct (split_bytes_sound _ _ _ _ E2) as [-> _].
  eexists. split; [reflexivity|]. now apply splice_in_gap_lemma.
Qed.

Lemma edits_in_gaps_lemma : forall es src, edits_ok src es = true ->
  exists src', apply_edits src es = Some src' /\ lex_items src' = lex_items src.
Proof.
  induction es as [|e es IH]; intros src H; cbn [edits_ok apply_edits] in *.
  - now exists src.
  - apply andb_prop in H as [He Hr]. destruct (splice_in_gap_edit src e He) as (s1 & E1 & L1).
    rewrite E1 in *. destruct (IH s1 Hr) as (s2 & E2 & L2). exists s2. split; [exact E2|congruence].
Qed.

(* descending non-overlapping edits: a splice leaves the text before it alone,
   so the offsets of the remaining (earlier) edits keep their meaning *)
Lemma splice_keeps_prefix : forall src e src', splice src e = Some src' ->
  exists pre q q', src = pre ++ q /\ src' = pre ++ q' /\ blen pre = e_start e.
Proof.
  intros src e src' H. unfold splice in H.
  destruct (e_end e <? e_start e); [discriminate|].
  destruct (split_bytes src (e_start e)) as [[pre q]|] eqn:E1; [|discriminate].
  destruct (split_bytes q (e_end e - e_start e)) as [[w post]|] eqn:E2; [|discriminate].
  injection H as <-. destruct (split_bytes_sound _ _ _ _ E1) as [-> Hb].
  exists pre, q, (e_rep e ++ post). now repeat split.
Qed.

Lemma splice_app : forall pre w rep post,
  splice (pre ++ w ++ post) (mkedit (blen pre) (blen pre + blen w) rep) = Some (pre ++ rep ++ post).
Proof.
  intros. unfold splice. cbn [e_start e_end e_rep].
  replace (blen pre + blen w <? blen pre) with false by (symmetry; apply N.ltb_ge; lia).
  rewrite split_bytes_app. replace (blen pre + blen w - blen pre) with (blen w) by lia.
  now rewrite split_bytes_app.
Qed.

Lemma apply_edits_nil_lemma : forall s, apply_edits s [] = Some s.
Proof. reflexivity. Qed.

Lemma strip_lfs_unfold : forall a b t,
  strip_lfs (a :: b :: t) = if (a =? LF) && (b =? LF) then strip_lfs (b :: t) else a :: b :: t.
Proof. reflexivity. Qed.

Lemma strip_lfs_idem_len : forall n r, (length r <= n)%nat -> strip_lfs (strip_lfs r) = strip_lfs r.
Proof.
  induction n as [|n IH]; intros r L.
  - destruct r; [reflexivity|cbn [length] in L; lia].
  - destruct r as [|a [|b t]]; try reflexivity. rewrite strip_lfs_unfold.
    destruct ((a =? LF) && (b =? LF)) eqn:E.
    + apply IH. cbn [length] in *. lia.
    + rewrite strip_lfs_unfold, E. reflexivity.
Qed.

Lemma strip_lfs_idem : forall r, strip_lfs (strip_lfs r) = strip_lfs r.
Proof. intro r. exact (strip_lfs_idem_len (length r) r (le_n _)). Qed.

Lemma final_newline_idem_lemma : forall s, final_newline (final_newline s) = final_newline s.
Proof.
  intro s. unfold final_newline. remember (strip_lfs (rev s)) as r eqn:Er.
  assert (Hr : strip_lfs r = r) by (subst r; apply strip_lfs_idem). clear Er.
  destruct r as [|c r']; [reflexivity|]. destruct (c =? LF) eqn:Ec.
  - rewrite rev_involutive, Hr, Ec. reflexivity.
  - rewrite rev_involutive, strip_lfs_unfold, Ec, andb_false_r. now rewrite N.eqb_refl.
Qed.

Lemma indent_edit_shape : forall pre rest n,
  let (w, post) := span ws_not_lf rest in
  exists rep, e_rep (indent_edit pre rest n) = rep /\
    splice (pre ++ rest) (indent_edit pre rest n) = Some (pre ++ rep ++ post).
Proof.
  intros pre rest n. unfold indent_edit. destruct (span ws_not_lf rest) as [w post] eqn:E.
  destruct (span_spec _ _ _ _ E) as [-> _]. eexists. split; [reflexivity|]. apply splice_app.
Qed.

(* `{\n    x\n}`: re-indent line 1 to two spaces -- line start is a step boundary *)
Definition ex_pre : list N := [123; 10].
Definition ex_rest : list N := [32; 32; 32; 32; 120; 10; 125].
Lemma line_indent_example :
  line_start ex_pre = true /\ gap_edit_ok (ex_pre ++ ex_rest) (indent_edit ex_pre ex_rest 2) = true /\
  splice (ex_pre ++ ex_rest) (indent_edit ex_pre ex_rest 2) = Some [123; 10; 32; 32; 120; 10; 125].
Proof. vm_compute. repeat split. Qed.

(* `"a\n  b"`: line 1 starts inside the string token; un-indenting it is rejected
   by the condition and does change the token *)
Definition ms_pre : list N := [34; 97; 10].
Definition ms_rest : list N := [32; 32; 98; 34].
Lemma line_indent_refuted_lemma :
  line_start ms_pre = true /\
  gap_edit_ok (ms_pre ++ ms_rest) (indent_edit ms_pre ms_rest 0) = false /\
  exists src', splice (ms_pre ++ ms_rest) (indent_edit ms_pre ms_rest 0) = Some src' /\
               lex_items src' <> lex_items (ms_pre ++ ms_rest).
Proof.
  split; [reflexivity|]. split; [vm_compute; reflexivity|].
  eexists. split; [vm_compute; reflexivity|]. vm_compute. discriminate.
Qed.

(* `let x  = 1` -> `let x = 1` *)
Lemma gap_ok_example :
  gap_ok [108; 101; 116; 32; 120] [32; 32] [32] [61; 32; 49] = true.
Proof. vm_compute. reflexivity. Qed.

(* `f(a ,b)` -> `f(a,b)` (emptying the gap in front of a comma) and `f(a,b)` -> `f(a, b)` *)
Lemma gap_ok_comma_examples :
  gap_ok [102; 40; 97] [32] [] [44; 98; 41] = true /\
  gap_ok [102; 40; 97; 44] [] [32] [98; 41] = true.
Proof. vm_compute. split; reflexivity. Qed.

(* the glue condition is needed: `a b` -> `ab`, `1 .5` -> `1.5`, `- 1` -> `-1` are
   whitespace-only edits in a gap that change the tokens; gap_ok rejects them *)
Lemma glue_needed :
  (gap_ok [97] [32] [] [98] = false /\ lex_items [97; 98] <> lex_items [97; 32; 98]) /\
  (gap_ok [49] [32] [] [46; 53] = false /\ lex_items [49; 46; 53] <> lex_items [49; 32; 46; 53]) /\
  (gap_ok [45] [32] [] [49] = false /\ lex_items [45; 49] <> lex_items [45; 32; 49]).
Proof. repeat split; try (vm_compute; reflexivity); vm_compute; discriminate. Qed.

(* `// c\n  x` -> `// c\nx`: passes with the comment line counted to what follows the edit *)
Lemma gap_ok_after_comment_example :
  gap_ok [47; 47; 32; 99; 10] [32; 32] [] [120] = true.
Proof. vm_compute. reflexivity. Qed.

Lemma gap_edit_fixed_point : forall desired prev next d,
  desired prev next = Some d -> gap_edit_of desired prev next d = None.
Proof.
  intros desired prev next d H. unfold gap_edit_of. rewrite H.
  now destruct (list_eq_dec N.eq_dec d d).
Qed.

Lemma gap_edit_result_fixed : forall desired prev next gap d,
  gap_edit_of desired prev next gap = Some d -> gap_edit_of desired prev next d = None.
Proof.
  intros desired prev next gap d H. apply gap_edit_fixed_point. unfold gap_edit_of in H.
  destruct (desired prev next) as [d'|]; [|discriminate].
  destruct (list_eq_dec N.eq_dec gap d'); [discriminate|]. now injection H as <-.
Qed.

Lemma final_newline_example :
  final_newline [97; 10; 10; 10] = [97; 10] /\ final_newline [97] = [97; 10] /\ final_newline [] = [].
Proof. vm_compute. repeat split. Qed.
