(* Proofs about the model in Types.v: `is_subtype` is a preorder with the documented variance (C14),
   `unify` and the fall-backs of its call sites return upper bounds (C15). *)
From Coq Require Import List Bool Arith NArith Lia.
From Garden Require Import Types.
Import ListNotations.

Lemma name_eqb_eq a b : name_eqb a b = true <-> a = b.
Proof.
  revert b; induction a as [|x a IH]; intros [|y b]; cbn; split; try discriminate; try reflexivity.
  - intros H. apply andb_true_iff in H as [H1 H2]. apply N.eqb_eq in H1. apply IH in H2. congruence.
  - intros H. injection H as -> ->. rewrite N.eqb_refl. apply IH. reflexivity.
Qed.
Lemma name_eqb_refl a : name_eqb a a = true.
Proof. apply name_eqb_eq. reflexivity. Qed.
Lemma name_eqb_neq a b : name_eqb a b = false <-> a <> b.
Proof. rewrite <- name_eqb_eq. destruct (name_eqb a b); split; congruence. Qed.

Lemma size_pos t : 0 < ty_size t.
Proof. destruct t; cbn; lia. Qed.

Lemma in_lsize x l : In x l -> ty_size x <= ty_lsize l.
Proof.
  induction l as [|y l IH]; cbn; [tauto|].
  intros [->|H]; [lia|]. apply IH in H. unfold ty_lsize in H. lia.
Qed.

Lemma size_tuple l : ty_size (TTuple l) = S (ty_lsize l). Proof. reflexivity. Qed.
Lemma size_fun t ps r : ty_size (TFun t ps r) = S (ty_lsize ps + ty_size r). Proof. reflexivity. Qed.
Lemma size_user k n l : ty_size (TUser k n l) = S (ty_lsize l). Proof. reflexivity. Qed.

Section TyInd.
  Variable P : ty -> Prop.
  Hypothesis HAny : P TAny.
  Hypothesis HTuple : forall l, Forall P l -> P (TTuple l).
  Hypothesis HFun : forall g ps r, Forall P ps -> P r -> P (TFun g ps r).
  Hypothesis HUser : forall k n args, Forall P args -> P (TUser k n args).
  Hypothesis HParam : forall x, P (TParam x).
  Hypothesis HErr : forall g, P (TErr g).
  Fixpoint ty_ind' (t : ty) : P t :=
    let all := fix all (l : list ty) : Forall P l :=
      match l with [] => Forall_nil P | x :: l' => Forall_cons x (ty_ind' x) (all l') end in
    match t with
    | TAny => HAny
    | TTuple l => HTuple l (all l)
    | TFun g ps r => HFun g ps r (all ps) (ty_ind' r)
    | TUser k n args => HUser k n args (all args)
    | TParam x => HParam x
    | TErr g => HErr g
    end.
End TyInd.

(* the types a type is built from *)
Definition children (t : ty) : list ty :=
  match t with TTuple l | TUser _ _ l => l | TFun _ ps r => r :: ps | _ => [] end.
Lemma ty_children_ind (P : ty -> Prop) : (forall t, Forall P (children t) -> P t) -> forall t, P t.
Proof. intros H t. induction t using ty_ind'; apply H; cbn [children]; auto. Qed.

(* `all2o` over a recursive call that always answers *)
Fixpoint all2 (f : ty -> ty -> bool) (l1 l2 : list ty) : bool :=
  match l1, l2 with
  | x :: xs, y :: ys => f x y && all2 f xs ys
  | _, _ => true
  end.

Lemma all2o_all2 r f l1 l2 :
  (forall x y, In x l1 -> In y l2 -> r x y = Some (f x y)) -> all2o r l1 l2 = Some (all2 f l1 l2).
Proof.
  revert l2; induction l1 as [|x xs IH]; intros [|y ys] H; cbn; try reflexivity.
  rewrite (H x y) by (cbn; auto). destruct (f x y); [|reflexivity].
  apply IH. intros; apply H; cbn; auto.
Qed.

(* `sub_step` over a recursive call that always answers *)
Definition sub_stepb (rec : ty -> ty -> bool) (a b : ty) : bool :=
  match b with
  | TAny => true
  | _ =>
    if is_no_value a then true else
    match a, b with
    | TErr _, _ => true
    | _, TErr _ => true
    | TParam x, TParam y => name_eqb x y
    | TParam _, _ => false
    | TTuple l1, TTuple l2 => Nat.eqb (List.length l1) (List.length l2) && all2 rec l1 l2
    | TTuple _, _ => false
    | TFun _ p1 r1, TFun _ p2 r2 =>
        Nat.eqb (List.length p1) (List.length p2) && all2 (fun l r => rec r l) p1 p2 && rec r1 r2
    | TFun _ _ _, _ => false
    | TUser _ n1 a1, TUser _ n2 a2 => name_eqb n1 n2 && all2 rec a1 a2
    | TUser _ _ _, _ => false
    | TAny, _ => false
    end
  end.

Lemma sub_step_stepb rec f a b :
  (forall x y, ty_size x + ty_size y < ty_size a + ty_size b -> rec x y = Some (f x y)) ->
  sub_step rec a b = Some (sub_stepb f a b).
Proof.
  intros H. unfold sub_step, sub_stepb.
  destruct b; try reflexivity; destruct (is_no_value a); try reflexivity; destruct a; try reflexivity.
  - rewrite (all2o_all2 rec f).
    + destruct (Nat.eqb _ _); reflexivity.
    + intros x y Hx Hy. apply H. apply in_lsize in Hx, Hy. rewrite !size_tuple. lia.
  - rewrite (all2o_all2 (fun l r => rec r l) (fun l r => f r l)).
    + destruct (Nat.eqb _ _); [|reflexivity]. destruct (all2 _ _ _); [|reflexivity]. apply H. rewrite !size_fun. lia.
    + intros x y Hx Hy. apply H. apply in_lsize in Hx, Hy. rewrite !size_fun. lia.
  - rewrite (all2o_all2 rec f).
    + destruct (name_eqb _ _); reflexivity.
    + intros x y Hx Hy. apply H. apply in_lsize in Hx, Hy. rewrite !size_user. lia.
Qed.

Lemma sub_fuel_step : forall n a b,
  ty_size a + ty_size b <= n -> is_subtype_fuel n a b = Some (sub_stepb is_subtype a b).
Proof.
  induction n as [n IH] using lt_wf_ind. intros a b Hn.
  destruct n as [|n]; [pose proof (size_pos a); lia|].
  cbn [is_subtype_fuel]. apply sub_step_stepb. intros x y Hxy.
  (* a smaller pair: the remaining fuel and the fuel that `is_subtype` gives it are both enough *)
  unfold is_subtype. rewrite (IH (ty_size x + ty_size y)), (IH n) by lia. reflexivity.
Qed.

Lemma sub_unfold a b : is_subtype a b = sub_stepb is_subtype a b.
Proof. unfold is_subtype at 1. rewrite sub_fuel_step by lia. reflexivity. Qed.

Lemma sub_fuel_enough_lemma n a b : ty_size a + ty_size b <= n -> is_subtype_fuel n a b = Some (is_subtype a b).
Proof. intros Hn. rewrite sub_unfold. exact (sub_fuel_step n a b Hn). Qed.

Lemma sub_any_r a : is_subtype a TAny = true.
Proof. rewrite sub_unfold. reflexivity. Qed.

Lemma sub_novalue_l a b : is_no_value a = true -> is_subtype a b = true.
Proof. intros H. rewrite sub_unfold. unfold sub_stepb. rewrite H. destruct b; reflexivity. Qed.

Lemma sub_err_l t b : is_subtype (TErr t) b = true.
Proof. rewrite sub_unfold. destruct b; reflexivity. Qed.

Lemma sub_err_r a t : is_subtype a (TErr t) = true.
Proof. rewrite sub_unfold. unfold sub_stepb. destruct (is_no_value a); [reflexivity|]. destruct a; reflexivity. Qed.

Lemma sub_tuple l1 l2 :
  is_subtype (TTuple l1) (TTuple l2) = Nat.eqb (List.length l1) (List.length l2) && all2 is_subtype l1 l2.
Proof. rewrite sub_unfold. reflexivity. Qed.

Lemma sub_fun t1 p1 r1 t2 p2 r2 :
  is_subtype (TFun t1 p1 r1) (TFun t2 p2 r2) =
  Nat.eqb (List.length p1) (List.length p2) && all2 (fun l r => is_subtype r l) p1 p2 && is_subtype r1 r2.
Proof. rewrite sub_unfold. reflexivity. Qed.

Lemma sub_user k1 n1 a1 k2 n2 a2 :
  is_subtype (TUser k1 n1 a1) (TUser k2 n2 a2) =
  if is_no_value (TUser k1 n1 a1) then true else name_eqb n1 n2 && all2 is_subtype a1 a2.
Proof. rewrite sub_unfold. reflexivity. Qed.

Lemma sub_param x y : is_subtype (TParam x) (TParam y) = name_eqb x y.
Proof. rewrite sub_unfold. reflexivity. Qed.

Lemma all2_refl (f : ty -> ty -> bool) l : Forall (fun x => f x x = true) l -> all2 f l l = true.
Proof. induction 1 as [|x l H _ IH]; cbn; [reflexivity|]. rewrite H. exact IH. Qed.

Lemma all2_Forall2 (f : ty -> ty -> bool) l1 l2 :
  List.length l1 = List.length l2 /\ all2 f l1 l2 = true <-> Forall2 (fun x y => f x y = true) l1 l2.
Proof.
  revert l2; induction l1 as [|x xs IH]; intros [|y ys]; cbn.
  1-3: split; [intros [L _]; try discriminate L; constructor | intros H; inversion H; auto].
  rewrite andb_true_iff. split.
  - intros [[= L] [H1 H2]]. constructor; [exact H1|]. apply IH; auto.
  - intros H; inversion H as [|? ? ? ? H1 H2]; subst. apply IH in H2 as [L H2]. auto.
Qed.

Lemma all2_trans (f : ty -> ty -> bool) l1 l2 l3 :
  (forall x y z, In x l1 -> In y l2 -> In z l3 -> f x y = true -> f y z = true -> f x z = true) ->
  List.length l1 = List.length l2 -> List.length l2 = List.length l3 ->
  all2 f l1 l2 = true -> all2 f l2 l3 = true -> all2 f l1 l3 = true.
Proof.
  revert l2 l3; induction l1 as [|x xs IH]; intros [|y ys] [|z zs] H L1 L2 H1 H2; cbn in *; try discriminate; try reflexivity.
  apply andb_true_iff in H1 as [H1 H1'], H2 as [H2 H2'].
  rewrite (H x y z) by auto. cbn. apply (IH ys zs); auto. intros; eapply H; eauto.
Qed.

Lemma forallb_In (f : ty -> bool) l x : forallb f l = true -> In x l -> f x = true.
Proof. intros H Hx. rewrite forallb_forall in H. auto. Qed.

Lemma sub_refl_lemma a : is_subtype a a = true.
Proof.
  induction a as [|l IH|g ps r IHp IHr|k n args IH|x|g] using ty_ind'.
  - apply sub_any_r.
  - rewrite sub_tuple, Nat.eqb_refl. apply all2_refl, IH.
  - rewrite sub_fun, Nat.eqb_refl, IHr, andb_true_r. apply (all2_refl (fun l r => is_subtype r l)), IHp.
  - rewrite sub_user, name_eqb_refl. destruct (is_no_value _); [reflexivity|]. apply all2_refl, IH.
  - rewrite sub_param. apply name_eqb_refl.
  - apply sub_err_l.
Qed.

Lemma is_err_true t : is_err t = true -> exists g, t = TErr g.
Proof. destruct t; try discriminate; eauto. Qed.

Lemma no_err_not_err t : ty_no_err t = true -> is_err t = true -> False.
Proof. destruct t; cbn; congruence. Qed.

Lemma sub_inv a b : is_subtype a b = true ->
  b = TAny \/ is_err b = true \/ is_no_value a = true \/ is_err a = true \/
  match a, b with
  | TParam x, TParam y => x = y
  | TTuple l1, TTuple l2 => List.length l1 = List.length l2 /\ all2 is_subtype l1 l2 = true
  | TFun _ p1 r1, TFun _ p2 r2 =>
      List.length p1 = List.length p2 /\ all2 (fun l r => is_subtype r l) p1 p2 = true /\ is_subtype r1 r2 = true
  | TUser _ n1 a1, TUser _ n2 a2 => n1 = n2 /\ all2 is_subtype a1 a2 = true
  | _, _ => False
  end.
Proof.
  rewrite sub_unfold. unfold sub_stepb.
  destruct b; auto; destruct (is_no_value a); auto; destruct a; auto 6; try discriminate; intros H; do 4 right.
  - apply andb_true_iff in H as [H1 H2]. apply Nat.eqb_eq in H1. auto.
  - apply andb_true_iff in H as [H H3]. apply andb_true_iff in H as [H1 H2]. apply Nat.eqb_eq in H1. auto.
  - apply andb_true_iff in H as [H1 H2]. apply name_eqb_eq in H1. auto.
  - apply name_eqb_eq, H.
Qed.

Lemma sub_above_top a c : is_subtype TAny c = true -> is_subtype a c = true.
Proof.
  intros H. destruct (sub_inv _ _ H) as [->|[H1|[H1|[H1|[]]]]]; try discriminate H1; [apply sub_any_r|].
  apply is_err_true in H1 as [g ->]. apply sub_err_r.
Qed.

(* ty_wf: every user-defined name is applied to the signature's number of arguments, so the
   `zip` in the UserDefined arm never truncates.  ty_no_err is needed on the MIDDLE type only
   (Error is both above and below everything).  The induction is on the middle type: the
   parameters of a function type swap the outer two, and the middle one stays where it is. *)
Lemma sub_trans_lemma (Sg : sig) a b c :
  ty_wf Sg a = true -> ty_wf Sg b = true -> ty_wf Sg c = true -> ty_no_err b = true ->
  is_subtype a b = true -> is_subtype b c = true -> is_subtype a c = true.
Proof.
  revert a c. induction b as [b IH] using ty_children_ind. intros a c Wa Wb Wc Nb Hab Hbc.
  rewrite Forall_forall in IH.
  destruct (sub_inv _ _ Hab) as [->|[Eb|[Na|[Ea|Sab]]]].
  { apply sub_above_top, Hbc. }
  { destruct (no_err_not_err _ Nb Eb). }
  { apply sub_novalue_l, Na. }
  { apply is_err_true in Ea as [g ->]. apply sub_err_l. }
  destruct (sub_inv _ _ Hbc) as [->|[Ec|[Nvb|[Eb|Sbc]]]].
  { apply sub_any_r. }
  { apply is_err_true in Ec as [g ->]. apply sub_err_r. }
  { (* b is named NoValue; a has the same name *)
    destruct b; try discriminate Nvb. destruct a; try contradiction. destruct Sab as [-> _].
    apply sub_novalue_l. exact Nvb. }
  { destruct (no_err_not_err _ Nb Eb). }
  destruct a as [|l1|g1 p1 r1|k1 n1 a1|x|], b as [|l2|g2 p2 r2|k2 n2 a2|y|]; try contradiction;
    destruct c as [|l3|g3 p3 r3|k3 n3 a3|z|]; try contradiction; cbn [ty_wf ty_no_err children] in Wa, Wb, Wc, Nb, IH.
  - destruct Sab as [L12 H12], Sbc as [L23 H23]. rewrite sub_tuple, L12, L23, Nat.eqb_refl.
    apply (all2_trans is_subtype l1 l2 l3); auto.
    intros x y z Hx Hy Hz. apply (IH y Hy x z); eauto using forallb_In.
  - destruct Sab as (L12 & H12 & R12), Sbc as (L23 & H23 & R23). rewrite sub_fun, L12, L23, Nat.eqb_refl.
    apply andb_true_iff in Wa as [Wa Wa'], Wb as [Wb Wb'], Wc as [Wc Wc'], Nb as [Nb Nb'].
    apply andb_true_iff; split.
    + apply (all2_trans (fun l r => is_subtype r l) p1 p2 p3); auto.
      intros x y z Hx Hy Hz Hyx Hzy. apply (IH y (or_intror Hy) z x); eauto using forallb_In.
    + apply (IH r2 (or_introl eq_refl) r1 r3); auto.
  - destruct Sab as [<- H12], Sbc as [<- H23]. rewrite sub_user, name_eqb_refl.
    destruct (is_no_value _); [reflexivity|].
    apply andb_true_iff in Wa as [La Wa], Wb as [Lb Wb], Wc as [Lc Wc].
    apply Nat.eqb_eq in La, Lb, Lc.
    apply (all2_trans is_subtype a1 a2 a3); try congruence.
    intros x y z Hx Hy Hz. apply (IH y Hy x z); eauto using forallb_In.
  - rewrite Sab, <- Sbc. apply sub_refl_lemma.
Qed.

Lemma any_top_strict_lemma b : ty_no_err b = true -> is_subtype TAny b = true -> b = TAny.
Proof.
  intros N H. destruct (sub_inv _ _ H) as [->|[H1|[H1|[H1|[]]]]]; try discriminate H1; [reflexivity|].
  destruct (no_err_not_err _ N H1).
Qed.

Lemma novalue_bottom_strict_lemma a : ty_no_err a = true -> is_subtype a no_value = true -> is_no_value a = true.
Proof.
  intros N H. destruct (sub_inv _ _ H) as [H1|[H1|[H1|[H1|S]]]]; try discriminate H1; [exact H1| |].
  - destruct (no_err_not_err _ N H1).
  - destruct a; try contradiction. destruct S as [-> _]. reflexivity.
Qed.

Lemma tuple_covariant_lemma l1 l2 :
  is_subtype (TTuple l1) (TTuple l2) = true <-> Forall2 (fun x y => is_subtype x y = true) l1 l2.
Proof. rewrite sub_tuple, andb_true_iff, Nat.eqb_eq. apply all2_Forall2. Qed.

Lemma user_covariant_lemma k1 k2 n a1 a2 :
  Forall2 (fun x y => is_subtype x y = true) a1 a2 -> is_subtype (TUser k1 n a1) (TUser k2 n a2) = true.
Proof.
  intros H. rewrite sub_user. destruct (is_no_value _); [reflexivity|].
  rewrite name_eqb_refl. apply all2_Forall2, H.
Qed.

Lemma user_covariant_inv_lemma k1 k2 n1 n2 a1 a2 :
  n1 <> n_NoValue -> List.length a1 = List.length a2 ->
  is_subtype (TUser k1 n1 a1) (TUser k2 n2 a2) = true ->
  n1 = n2 /\ Forall2 (fun x y => is_subtype x y = true) a1 a2.
Proof.
  intros Hn L H. rewrite sub_user in H.
  replace (is_no_value (TUser k1 n1 a1)) with false in H
    by (symmetry; unfold is_no_value; apply name_eqb_neq; assumption).
  apply andb_true_iff in H as [H1 H2]. apply name_eqb_eq in H1.
  split; [assumption | apply all2_Forall2; auto].
Qed.

Lemma fun_contra_co_lemma t1 p1 r1 t2 p2 r2 :
  is_subtype (TFun t1 p1 r1) (TFun t2 p2 r2) = true <->
  Forall2 (fun x y => is_subtype y x = true) p1 p2 /\ is_subtype r1 r2 = true.
Proof.
  rewrite sub_fun, !andb_true_iff, Nat.eqb_eq, (all2_Forall2 (fun l r => is_subtype r l)). reflexivity.
Qed.

(* the local `go` of ty_eqb *)
Definition eqb_list (f : ty -> ty -> bool) : list ty -> list ty -> bool :=
  fix go l1 l2 :=
    match l1, l2 with
    | [], [] => true
    | x :: xs, y :: ys => f x y && go xs ys
    | _, _ => false
    end.

Lemma ty_eqb_unfold a b : ty_eqb a b =
  match a, b with
  | TAny, TAny => true
  | TTuple l1, TTuple l2 => eqb_list ty_eqb l1 l2
  | TFun t1 p1 r1, TFun t2 p2 r2 => N.eqb t1 t2 && eqb_list ty_eqb p1 p2 && ty_eqb r1 r2
  | TUser k1 n1 a1, TUser k2 n2 a2 => kind_eqb k1 k2 && name_eqb n1 n2 && eqb_list ty_eqb a1 a2
  | TParam x, TParam y => name_eqb x y
  | TErr t1, TErr t2 => N.eqb t1 t2
  | _, _ => false
  end.
Proof. destruct a, b; reflexivity. Qed.

Lemma eqb_list_spec (f : ty -> ty -> bool) l1 :
  Forall (fun x => forall y, f x y = true <-> x = y) l1 -> forall l2, eqb_list f l1 l2 = true <-> l1 = l2.
Proof.
  induction 1 as [|x xs Hx _ IH]; intros [|y ys]; cbn; try (split; [discriminate|congruence]).
  - split; reflexivity.
  - rewrite andb_true_iff, Hx, IH. split; [intros [-> ->]; reflexivity | intros [= -> ->]; auto].
Qed.

Lemma kind_eqb_spec a b : kind_eqb a b = true <-> a = b.
Proof. destruct a, b; split; reflexivity || discriminate. Qed.

Lemma ty_eqb_spec a b : ty_eqb a b = true <-> a = b.
Proof.
  revert b. induction a as [|l IH|g ps r IHp IHr|k n args IH|x|g] using ty_ind'; intros b;
    rewrite ty_eqb_unfold; destruct b; try (split; discriminate).
  - split; reflexivity.
  - rewrite (eqb_list_spec _ _ IH). split; congruence.
  - rewrite !andb_true_iff, N.eqb_eq, (eqb_list_spec _ _ IHp), IHr. intuition congruence.
  - rewrite !andb_true_iff, kind_eqb_spec, name_eqb_eq, (eqb_list_spec _ _ IH). intuition congruence.
  - rewrite name_eqb_eq. split; congruence.
  - rewrite N.eqb_eq. split; congruence.
Qed.

Lemma ty_eqb_refl a : ty_eqb a a = true.
Proof. apply ty_eqb_spec. reflexivity. Qed.

(* the local `go` of unify *)
Fixpoint map2o (f : ty -> ty -> option ty) (l1 l2 : list ty) : option (list ty) :=
  match l1, l2 with
  | x :: xs, y :: ys =>
      match f x y with
      | None => None
      | Some u => match map2o f xs ys with None => None | Some us => Some (u :: us) end
      end
  | _, _ => Some []
  end.

Lemma unify_go l1 l2 :
  (fix go (l1 l2 : list ty) : option (list ty) :=
     match l1, l2 with
     | x :: xs, y :: ys =>
         match unify x y with
         | None => None
         | Some u => match go xs ys with None => None | Some us => Some (u :: us) end
         end
     | _, _ => Some []
     end) l1 l2 = map2o unify l1 l2.
Proof. revert l2; induction l1 as [|x xs IH]; intros [|y ys]; cbn; try reflexivity. rewrite IH. reflexivity. Qed.

Lemma unify_unfold a b : unify a b =
  if is_any a || is_any b then Some TAny else
  if is_no_value a || is_err a then Some b else
  if is_no_value b || is_err b then Some a else
  if ty_eqb a b then Some a else
  match a, b with
  | TUser k1 n1 a1, TUser k2 n2 a2 =>
      if negb (kind_eqb k1 k2) || negb (name_eqb n1 n2) || negb (Nat.eqb (List.length a1) (List.length a2))
      then None else
      match map2o unify a1 a2 with
      | None => None
      | Some us => Some (TUser k1 n1 us)
      end
  | _, _ => None
  end.
Proof. destruct a; try reflexivity. destruct b; try reflexivity. cbn [unify]. rewrite unify_go. reflexivity. Qed.

Lemma unify_cases a b c : unify a b = Some c ->
  c = TAny \/
  (c = b /\ is_no_value a || is_err a = true) \/
  (c = a /\ is_no_value b || is_err b = true) \/
  (c = a /\ b = a) \/
  exists k n a1 k2 a2 us,
    a = TUser k n a1 /\ b = TUser k2 n a2 /\ c = TUser k n us /\
    is_no_value a = false /\ is_no_value b = false /\
    List.length a1 = List.length a2 /\ map2o unify a1 a2 = Some us.
Proof.
  rewrite unify_unfold.
  destruct (is_any a || is_any b); [intros [= <-]; auto|].
  destruct (is_no_value a || is_err a) eqn:Ea; [intros [= <-]; auto|].
  destruct (is_no_value b || is_err b) eqn:Eb; [intros [= <-]; auto|].
  destruct (ty_eqb a b) eqn:E; [apply ty_eqb_spec in E as <-; intros [= <-]; auto 6|].
  destruct a as [| | |k n a1| |]; try discriminate. destruct b as [| | |k2 n2 a2| |]; try discriminate.
  destruct (kind_eqb k k2); [|discriminate]. destruct (name_eqb n n2) eqn:En; [|discriminate].
  destruct (Nat.eqb _ _) eqn:El; [|discriminate]. cbn [negb orb].
  destruct (map2o unify a1 a2) as [us|] eqn:M; [|discriminate]. intros [= <-].
  apply name_eqb_eq in En as <-. apply Nat.eqb_eq in El. apply orb_false_iff in Ea as [Ea _], Eb as [Eb _].
  do 4 right. exists k, n, a1, k2, a2, us. auto 10.
Qed.

Lemma map2o_upper (f : ty -> ty -> option ty) l1 l2 us :
  Forall (fun x => forall y u, f x y = Some u -> is_subtype x u = true /\ is_subtype y u = true) l1 ->
  map2o f l1 l2 = Some us -> all2 is_subtype l1 us = true /\ all2 is_subtype l2 us = true.
Proof.
  intros H; revert l2 us; induction H as [|x xs Hx _ IH]; intros [|y ys] us E; cbn in E;
    try (injection E as <-; split; reflexivity).
  destruct (f x y) as [u|] eqn:Eu; [|discriminate].
  destruct (map2o f xs ys) as [us'|] eqn:Em; [|discriminate]. injection E as <-.
  destruct (Hx y u Eu) as [H1 H2]. destruct (IH ys us' Em) as [I1 I2].
  cbn. rewrite H1, H2, I1, I2. split; reflexivity.
Qed.

Lemma map2o_length (f : ty -> ty -> option ty) l1 l2 us :
  List.length l1 = List.length l2 -> map2o f l1 l2 = Some us -> List.length us = List.length l1.
Proof.
  revert l2 us; induction l1 as [|x xs IH]; intros [|y ys] us L E; cbn in *; try discriminate.
  - injection E as <-. reflexivity.
  - destruct (f x y); [|discriminate]. destruct (map2o f xs ys) eqn:Em; [|discriminate]. injection E as <-.
    cbn. f_equal. eapply IH; [|eassumption]. lia.
Qed.

Lemma map2o_forallb (P : ty -> bool) (f : ty -> ty -> option ty) l1 l2 us :
  Forall (fun x => forall y u, P x = true -> P y = true -> f x y = Some u -> P u = true) l1 ->
  forallb P l1 = true -> forallb P l2 = true -> map2o f l1 l2 = Some us -> forallb P us = true.
Proof.
  intros H; revert l2 us; induction H as [|x xs Hx _ IH]; intros [|y ys] us P1 P2 E; cbn in *;
    try (injection E as <-; reflexivity).
  destruct (f x y) as [u|] eqn:Eu; [|discriminate]. destruct (map2o f xs ys) as [us'|] eqn:Em; [|discriminate].
  injection E as <-. apply andb_true_iff in P1 as [Px P1], P2 as [Py P2]. cbn.
  rewrite (Hx y u Px Py Eu). exact (IH ys us' P1 P2 Em).
Qed.

Lemma map2o_idem (f : ty -> ty -> option ty) l :
  (forall x, In x l -> f x x = Some x) -> map2o f l l = Some l.
Proof. induction l as [|x l IH]; intros H; cbn; [reflexivity|]. rewrite H by (cbn; auto). rewrite IH; [reflexivity|]. intros; apply H; cbn; auto. Qed.

Lemma sub_bottom a d : is_no_value a || is_err a = true -> is_subtype a d = true.
Proof.
  intros H. apply orb_true_iff in H as [H|H]; [exact (sub_novalue_l a d H)|].
  apply is_err_true in H as [g ->]. apply sub_err_l.
Qed.

Lemma unify_upper_lemma a : forall b c, unify a b = Some c -> is_subtype a c = true /\ is_subtype b c = true.
Proof.
  induction a as [a IH] using ty_children_ind. intros b c E.
  destruct (unify_cases _ _ _ E)
    as [->|[[-> B]|[[-> B]|[[-> ->]|(k & n & a1 & k2 & a2 & us & -> & -> & -> & Na & Nb & _ & M)]]]].
  - split; apply sub_any_r.
  - split; [exact (sub_bottom _ _ B)|apply sub_refl_lemma].
  - split; [apply sub_refl_lemma|exact (sub_bottom _ _ B)].
  - split; apply sub_refl_lemma.
  - destruct (map2o_upper unify a1 a2 us IH M) as [U1 U2].
    rewrite !sub_user, Na, Nb, name_eqb_refl, U1, U2. split; reflexivity.
Qed.

Lemma unify_idem_lemma a : unify a a = Some a.
Proof.
  rewrite unify_unfold.
  destruct (is_any a) eqn:E1; [destruct a; try discriminate; reflexivity|]. cbn [orb].
  destruct (is_no_value a || is_err a); [reflexivity|].
  rewrite ty_eqb_refl. reflexivity.
Qed.

Lemma forallb_andb (f g : ty -> bool) l : forallb (fun x => f x && g x) l = forallb f l && forallb g l.
Proof.
  induction l as [|x l IH]; cbn; [reflexivity|]. rewrite IH.
  destruct (f x), (g x), (forallb f l); reflexivity.
Qed.

Lemma ty_ok_user (Sg : sig) k n l :
  ty_ok Sg (TUser k n l) = Nat.eqb (List.length l) (Sg n) && forallb (ty_ok Sg) l.
Proof. unfold ty_ok. cbn [ty_wf ty_no_err]. rewrite (forallb_andb (ty_wf Sg) ty_no_err). symmetry. apply andb_assoc. Qed.

Lemma unify_ok (Sg : sig) a : forall b c, ty_ok Sg a = true -> ty_ok Sg b = true -> unify a b = Some c -> ty_ok Sg c = true.
Proof.
  induction a as [a IH] using ty_children_ind. intros b c Oa Ob E.
  destruct (unify_cases _ _ _ E)
    as [->|[[-> _]|[[-> _]|[[-> _]|(k & n & a1 & k2 & a2 & us & -> & -> & -> & _ & _ & L & M)]]]];
    try assumption; [reflexivity|].
  rewrite ty_ok_user in Oa, Ob |- *. apply andb_true_iff in Oa as [La Oa], Ob as [_ Ob].
  rewrite (map2o_length _ _ _ _ L M), La. exact (map2o_forallb (ty_ok Sg) unify a1 a2 us IH Oa Ob M).
Qed.

Lemma sub_trans_ok (Sg : sig) a b c : ty_ok Sg a = true -> ty_ok Sg b = true -> ty_ok Sg c = true ->
  is_subtype a b = true -> is_subtype b c = true -> is_subtype a c = true.
Proof.
  unfold ty_ok. rewrite !andb_true_iff. intros [Wa _] [Wb Nb] [Wc _]. exact (sub_trans_lemma Sg a b c Wa Wb Wc Nb).
Qed.

Lemma unify_all_from_upper (Sg : sig) : forall ts acc c,
  ty_ok Sg acc = true -> forallb (ty_ok Sg) ts = true -> unify_all_from acc ts = Some c ->
  is_subtype acc c = true /\ Forall (fun t => is_subtype t c = true) ts /\ ty_ok Sg c = true.
Proof.
  induction ts as [|t ts IH]; intros acc c Oa Ot E; cbn in E.
  - injection E as <-. split; [apply sub_refl_lemma|]. split; [constructor|assumption].
  - destruct (unify acc t) as [u|] eqn:Eu; [|discriminate].
    cbn in Ot. apply andb_true_iff in Ot as [Ot Ots].
    pose proof (unify_ok Sg acc t u Oa Ot Eu) as Ou.
    destruct (unify_upper_lemma acc t u Eu) as [Hau Htu].
    destruct (IH u c Ou Ots E) as (Huc & Hts & Oc).
    split; [exact (sub_trans_ok Sg acc u c Oa Ou Oc Hau Huc)|]. split; [|exact Oc].
    constructor; [exact (sub_trans_ok Sg t u c Ot Ou Oc Htu Huc)|exact Hts].
Qed.

Lemma unify_novalue_l t : unify no_value t = Some (if is_any t then TAny else t).
Proof. rewrite unify_unfold. destruct t; reflexivity. Qed.

(* The fold starts from NoValue, which need not be well-formed for Sg: the first step is taken by
   hand, and from then on the accumulator is well-formed and error-free. *)
Lemma unify_all_upper_lemma (Sg : sig) ts c :
  forallb (ty_ok Sg) ts = true -> unify_all ts = Some c -> Forall (fun t => is_subtype t c = true) ts.
Proof.
  intros Ot E. destruct ts as [|t ts]; [constructor|].
  unfold unify_all in E. cbn [unify_all_from] in E. rewrite unify_novalue_l in E.
  cbn in Ot. apply andb_true_iff in Ot as [Ot Ots].
  assert (Ou : ty_ok Sg (if is_any t then TAny else t) = true) by (destruct (is_any t); [reflexivity|assumption]).
  destruct (unify_all_from_upper Sg ts _ c Ou Ots E) as (Huc & Hts & _).
  constructor; [|exact Hts]. destruct t; exact Huc.
Qed.

Lemma unify_all_same_lemma t n : unify_all (repeat t (S n)) = Some t.
Proof.
  unfold unify_all. cbn [repeat unify_all_from]. rewrite unify_novalue_l.
  replace (if is_any t then TAny else t) with t by (destruct t; reflexivity).
  induction n as [|n IH]; cbn [repeat unify_all_from]; [reflexivity|].
  rewrite unify_idem_lemma. exact IH.
Qed.

Lemma fallback_upper (Sg : sig) items fb :
  (forall t, is_subtype t fb = true) -> forallb (ty_ok Sg) items = true ->
  Forall (fun t => is_subtype t (match unify_all items with Some t => t | None => fb end) = true) items.
Proof.
  intros Hfb O. destruct (unify_all items) as [c|] eqn:E.
  - exact (unify_all_upper_lemma Sg items c O E).
  - apply Forall_forall. intros t _. apply Hfb.
Qed.

Lemma site_list_upper_lemma (Sg : sig) items : forallb (ty_ok Sg) items = true ->
  exists e, site_list items = t_list e /\ Forall (fun t => is_subtype t e = true) items.
Proof. intros O. eexists; split; [reflexivity|]. apply (fallback_upper Sg); [apply sub_any_r|assumption]. Qed.

Lemma site_dict_upper_lemma (Sg : sig) values : forallb (ty_ok Sg) values = true ->
  exists e, site_dict values = t_dict e /\ Forall (fun t => is_subtype t e = true) values.
Proof. intros O. eexists; split; [reflexivity|]. apply (fallback_upper Sg); [apply sub_any_r|assumption]. Qed.

Lemma site_check_list_upper_lemma (Sg : sig) items : forallb (ty_ok Sg) items = true ->
  exists e, site_check_list items = t_list e /\ Forall (fun t => is_subtype t e = true) items.
Proof. intros O. eexists; split; [reflexivity|]. apply (fallback_upper Sg); [intros; apply sub_err_r|assumption]. Qed.

Lemma site_branches_upper_lemma t1 t2 :
  is_subtype t1 (site_branches t1 t2) = true /\ is_subtype t2 (site_branches t1 t2) = true.
Proof.
  unfold site_branches. destruct (unify t1 t2) as [c|] eqn:E.
  - apply unify_upper_lemma; assumption.
  - split; apply sub_err_r.
Qed.

(* The Error fall-back is reported only together with a diagnostic: an error-free result is unify's. *)
Lemma site_branches_error_free_lemma t1 t2 :
  ty_no_err (site_branches t1 t2) = true -> unify t1 t2 = Some (site_branches t1 t2).
Proof. unfold site_branches. destruct (unify t1 t2); [reflexivity|discriminate]. Qed.

Lemma site_match_upper_lemma (Sg : sig) expected cases :
  forallb (ty_ok Sg) cases = true ->
  Forall (fun t => is_subtype t expected = true) cases ->     (* no diagnostic from check_block *)
  Forall (fun t => is_subtype t (site_match expected cases) = true) cases.
Proof.
  intros O Hexp. unfold site_match.
  assert (G : Forall (fun t => is_subtype t (match unify_all cases with
              | Some t => if is_no_value t then expected else t | None => expected end) = true) cases).
  { destruct (unify_all cases) as [c|] eqn:E; [|assumption].
    destruct (is_no_value c); [assumption|]. eapply unify_all_upper_lemma; eassumption. }
  destruct expected; try exact G.
  apply (fallback_upper Sg); [intros; apply sub_err_r|assumption].
Qed.
