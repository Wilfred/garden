(* Soundness of the model checker `tc` (Typing.v) for the reference semantics
   `ev`: accepted programs never end in `TypeErr`.  Big-step progress +
   preservation in one statement (`good`), by induction on the evaluator's fuel. *)
From Coq Require Import ZArith NArith Bool List.
From Garden Require Import Typing.
Import ListNotations.
Open Scope Z_scope.

Lemma ty_eqb_refl a : ty_eqb a a = true.
Proof. induction a; cbn [ty_eqb]; auto. rewrite IHa1, IHa2. reflexivity. Qed.

Lemma ty_eqb_eq a : forall b, ty_eqb a b = true <-> a = b.
Proof.
  intros b. split; [|intros <-; apply ty_eqb_refl].
  revert b. induction a as [| | | | | | |a IH|a1 IH1 a2 IH2]; intros [] H; try discriminate H; try reflexivity; cbn [ty_eqb] in H.
  - f_equal. exact (IH _ H).
  - apply andb_true_iff in H as [H1 H2]. f_equal; [exact (IH1 _ H1)|exact (IH2 _ H2)].
Qed.

Lemma has_type_novalue v : has_type v TNoValue = false.
Proof. destruct v; reflexivity. Qed.

Lemma sub_refl a : sub a a = true.
Proof. induction a; cbn; auto. rewrite IHa1, IHa2. reflexivity. Qed.

Lemma sub_sound : forall v a b, has_type v a = true -> sub a b = true -> has_type v b = true.
Proof.
  induction v as [z|bb|st| |l|w IH| |w1 IH1 w2 IH2]; intros a b HV SB; destruct a; try discriminate;
    try (cbn [sub] in SB; apply ty_eqb_eq in SB; subst b; exact HV).
  - destruct b; try discriminate; [|exact HV]. cbn [has_type] in *. destruct l; [reflexivity|discriminate].
  - destruct b; try discriminate. cbn [sub has_type] in *. eapply IH; eauto.
  - destruct b; try discriminate. reflexivity.
  - destruct b; try discriminate. cbn [sub has_type] in *.
    apply andb_true_iff in HV as [H1 H2]. apply andb_true_iff in SB as [S1 S2].
    rewrite (IH1 _ _ H1 S1), (IH2 _ _ H2 S2). reflexivity.
Qed.

Lemma join_sound a b t : join a b = Some t -> sub a t = true /\ sub b t = true.
Proof.
  unfold join. destruct (sub a b) eqn:E1.
  - intros [= <-]. split; [exact E1|apply sub_refl].
  - destruct (sub b a) eqn:E2; [|discriminate]. intros [= <-]. split; [apply sub_refl|exact E2].
Qed.

Definition R (a : ident * ty) (b : ident * value) : Prop :=
  fst a = fst b /\ has_type (snd b) (snd a) = true.

Definition env_ok (G : ctx) (r : env) : Prop := Forall2 (Forall2 R) G r.

Lemma assoc_ok x : forall s s', Forall2 R s s' ->
  match assoc x s with
  | Some t => exists v, assoc x s' = Some v /\ has_type v t = true
  | None => assoc x s' = None
  end.
Proof.
  induction 1 as [|[y t] [y' v] s s' [E HT] _ IH]; cbn [assoc]; [reflexivity|].
  cbn [fst snd] in E, HT. subst y'. destruct (N.eqb x y); [eauto|exact IH].
Qed.

Lemma lookup_ok x : forall G r, env_ok G r ->
  match lookup x G with
  | Some t => exists v, lookup x r = Some v /\ has_type v t = true
  | None => lookup x r = None
  end.
Proof.
  induction 1 as [|s s' G r Hs _ IH]; cbn [lookup]; [reflexivity|].
  pose proof (assoc_ok x s s' Hs) as A. destruct (assoc x s) as [t|].
  - destruct A as (v & -> & HT). eauto.
  - rewrite A. exact IH.
Qed.

Lemma bind_ok {x t v G r} : env_ok G r -> has_type v t = true -> env_ok (bind x t G) (bind x v r).
Proof.
  intros H HT. destruct H as [|s s' G r Hs H]; cbn [bind].
  - repeat constructor; auto.
  - constructor; [|exact H]. constructor; [split; auto|exact Hs].
Qed.

Lemma set_assoc_ok x t v : forall s s', Forall2 R s s' -> assoc x s = Some t -> has_type v t = true ->
  Forall2 R s (set_assoc x v s').
Proof.
  induction 1 as [|[y ty] [y' w] s s' [E HT] Hs IH]; cbn [assoc set_assoc]; intros A HV; [discriminate|].
  cbn [fst snd] in E, HT. subst y'. destruct (N.eqb x y).
  - injection A as ->. constructor; [split; auto|exact Hs].
  - constructor; [split; auto|]. now apply IH.
Qed.

Lemma update_ok x t v : forall G r, env_ok G r -> lookup x G = Some t -> has_type v t = true ->
  exists r', update x v r = Some r' /\ env_ok G r'.
Proof.
  induction 1 as [|s s' G r Hs H IH]; cbn [lookup update]; intros L HV; [discriminate|].
  pose proof (assoc_ok x s s' Hs) as A. destruct (assoc x s) as [t'|] eqn:AS.
  - destruct A as (w & -> & _). injection L as ->. eexists. split; [reflexivity|].
    constructor; [|exact H]. eapply set_assoc_ok; eauto.
  - rewrite A. destruct (IH L HV) as (r' & -> & OK). eexists. split; [reflexivity|]. constructor; assumption.
Qed.

Lemma tl_ok {G r} : env_ok G r -> env_ok (tl G) (tl r).
Proof. intros [|s s' G' r' _ H]; [constructor|exact H]. Qed.

Lemma tl_bind {A} x (v : A) r : tl (bind x v r) = tl r.
Proof. destruct r; reflexivity. Qed.

(* a `return v` on its way to the enclosing call carries a value of the declared return type *)
Definition ret_ok (rt : option ty) (v : value) : Prop :=
  match rt with Some t => has_type v t = true | None => False end.

Definition good (rt : option ty) (t : ty) (G : ctx) (x : res (value * env)) : Prop :=
  match x with
  | Ok (v, r') => has_type v t = true /\ env_ok G r'
  | TypeErr => False
  | Return v => ret_ok rt v
  | _ => True
  end.

Lemma good_sub {rt a b G x} : sub a b = true -> good rt a G x -> good rt b G x.
Proof.
  intros S. destruct x as [[v r]| | | |w]; cbn [good]; auto.
  intros [HV OK]. split; [exact (sub_sound _ _ _ HV S)|exact OK].
Qed.

Lemma good_then {rt a b G G' x} {k : value -> env -> res (value * env)} :
  good rt a G x ->
  (forall v r, has_type v a = true -> env_ok G r -> good rt b G' (k v r)) ->
  good rt b G' match x with
               | Ok (v, r) => k v r
               | TypeErr => TypeErr | OtherErr => OtherErr | OutOfFuel => OutOfFuel | Return w => Return w
               end.
Proof. destruct x as [[v r]| | | |w]; cbn [good]; auto. intros [HV OK] K. exact (K v r HV OK). Qed.

Definition sound_f (rt : option ty) (tcf : ctx -> tm -> option ty) (evf : env -> tm -> res (value * env)) : Prop :=
  forall G r e t, tcf G e = Some t -> env_ok G r -> good rt t G (evf r e).

Section Parametric.
Context {tcf : ctx -> tm -> option ty} {evf : env -> tm -> res (value * env)} {rt : option ty}.
Hypothesis SF : sound_f rt tcf evf.

Lemma list_sound : forall l G r ts, tc_list tcf G l = Some ts -> env_ok G r ->
  match ev_list evf r l with
  | Ok (vs, r') => Forall2 (fun v t => has_type v t = true) vs ts /\ env_ok G r'
  | TypeErr => False
  | Return w => ret_ok rt w
  | _ => True
  end.
Proof.
  induction l as [|e l IH]; intros G r ts H OKr; cbn [tc_list ev_list] in *.
  - injection H as <-. split; [constructor|exact OKr].
  - destruct (tcf G e) as [t|] eqn:T; [|discriminate].
    destruct (tc_list tcf G l) as [ts'|] eqn:TL; [|discriminate]. injection H as <-.
    pose proof (SF G r e t T OKr) as GE. destruct (evf r e) as [[v r1]| | | |w0]; cbn [good] in GE; auto.
    destruct GE as [HV OK1]. specialize (IH G r1 ts' TL OK1).
    destruct (ev_list evf r1 l) as [[vs r2]| | | |w0]; auto. destruct IH as [F2 OK2]. split; [constructor; assumption|exact OK2].
Qed.

(* what `tc_stmts` does with the first statement of a block: its type, and the context for the rest *)
Definition tc_one (G : ctx) (e : tm) : option (ty * ctx) :=
  match e with
  | TmLet x rhs => match tcf G rhs with Some t => Some (TUnit, bind x t G) | None => None end
  | TmLetPair x y rhs =>
      match tcf G rhs with
      | Some (TPair ta tb) => if N.eqb x y then None else Some (TUnit, bind y tb (bind x ta G))
      | _ => None
      end
  | _ => match tcf G e with Some t => Some (t, G) | None => None end
  end.

Lemma tc_stmts_cons G e l : tc_stmts tcf G (e :: l) =
  match tc_one G e with
  | Some (t, G') => match l with [] => Some t | _ => tc_stmts tcf G' l end
  | None => None
  end.
Proof.
  destruct e; cbn [tc_stmts tc_one]; try (destruct (tcf G _); reflexivity).
  destruct (tcf G e) as [[]|]; try reflexivity. destruct (N.eqb x y); reflexivity.
Qed.

Lemma one_sound G r e t G' : tc_one G e = Some (t, G') -> env_ok G r ->
  tl G' = tl G /\ good rt t G' (ev_one evf r e).
Proof.
  intros H OKr. destruct e; cbn [tc_one ev_one] in H |- *; destruct (tcf G _) as [t1|] eqn:T; try discriminate H.
  (* an expression: checked by tcf and evaluated by evf as it stands *)
  all: try (injection H as <- <-; exact (conj eq_refl (SF _ _ _ _ T OKr))).
  - injection H as <- <-. split; [apply tl_bind|].
    apply (good_then (SF _ _ _ _ T OKr)). intros v r1 HV OK1.
    split; [reflexivity|exact (bind_ok OK1 HV)].
  - destruct t1 as [| | | | | | | |ta tb]; try discriminate. destruct (N.eqb x y); [discriminate|].
    injection H as <- <-. split; [rewrite !tl_bind; reflexivity|].
    apply (good_then (SF _ _ _ _ T OKr)). intros v r1 HV OK1.
    destruct v; try discriminate. apply andb_true_iff in HV as [HA HB].
    split; [reflexivity|exact (bind_ok (bind_ok OK1 HA) HB)].
Qed.

(* The statements of a block may extend the block's own (innermost) scope; once that scope is
   dropped, the environment matches the enclosing context again. *)
Lemma stmts_sound : forall l G r t, tc_stmts tcf G l = Some t -> env_ok G r ->
  good rt t (tl G) match ev_stmts evf r l with Ok (v, r') => Ok (v, tl r') | other => other end.
Proof.
  induction l as [|e l IH]; intros G r t H OKr.
  - injection H as <-. split; [reflexivity|exact (tl_ok OKr)].
  - rewrite tc_stmts_cons in H. destruct (tc_one G e) as [[t1 G1]|] eqn:T1; [|discriminate].
    destruct (one_sound _ _ _ _ _ T1 OKr) as [<- G1ok]. cbn [ev_stmts].
    destruct (ev_one evf r e) as [[v r1]| | | |w]; cbn [good] in G1ok |- *; auto. destruct G1ok as [HV OK1].
    destruct l.
    + injection H as <-. split; [exact HV|exact (tl_ok OK1)].
    + exact (IH _ _ _ H OK1).
Qed.

Lemma block_in_sound l s sc0 G r t :
  tc_stmts tcf (s :: G) l = Some t -> Forall2 R s sc0 -> env_ok G r -> good rt t G (ev_block_in evf sc0 r l).
Proof. intros H OKs OKr. exact (stmts_sound l (s :: G) (sc0 :: r) t H (Forall2_cons _ _ OKs OKr)). Qed.

Lemma block_sound l G r t : tc_stmts tcf ([] :: G) l = Some t -> env_ok G r -> good rt t G (ev_block evf r l).
Proof. intros H OKr. apply (block_in_sound l [] [] G r t H); [constructor|exact OKr]. Qed.

Lemma for_sound x tx body G t : tc_stmts tcf ([(x, tx)] :: G) body = Some t ->
  forall vs r, forallb (fun v => has_type v tx) vs = true -> env_ok G r ->
  good rt TUnit G (ev_for evf x body vs r).
Proof.
  intros H. induction vs as [|v vs IH]; intros r ALL OKr; cbn [ev_for].
  - split; [reflexivity|exact OKr].
  - cbn [forallb] in ALL. apply andb_true_iff in ALL as [HV ALL].
    assert (OKs : Forall2 R [(x, tx)] [(x, v)]) by (repeat constructor; exact HV).
    apply (good_then (block_in_sound body _ _ G r t H OKs OKr)). intros _ r2 _ OK2.
    exact (IH r2 ALL OK2).
Qed.
End Parametric.

Definition fenv_ok (F : fenv) : Prop :=
  forall f d, assoc f F = Some d ->
    exists n t, tc_stmts (tc n F (Some (fret d))) [fparams d] (fbody d) = Some t /\ sub t (fret d) = true.

Definition val_ok (t : ty) (x : res value) : Prop :=
  match x with Ok v => has_type v t = true | TypeErr | Return _ => False | _ => True end.

Lemma ret_int_ok z : val_ok TInt (ret_int z).
Proof. unfold ret_int. destruct (in_i64 z); [reflexivity|exact I]. Qed.

Lemma val_ok_if t (c : bool) x y : val_ok t x -> val_ok t y -> val_ok t (if c then x else y).
Proof. destruct c; auto. Qed.

Lemma arith_ok k a b : val_ok TInt (arith k a b).
Proof.
  (* the leaves are told apart by their shape: trying `apply ret_int_ok` on an error leaf is slow to fail *)
  unfold arith. repeat simple apply val_ok_if;
    lazymatch goal with |- val_ok _ (ret_int _) => apply ret_int_ok | |- _ => exact I end.
Qed.

Lemma operands_ok ta tb t va vb : has_type va ta = true -> has_type vb tb = true ->
  sub ta t && sub tb t = true -> has_type va t = true /\ has_type vb t = true.
Proof. intros HA HB E. apply andb_true_iff in E as [E1 E2]. split; eapply sub_sound; eauto. Qed.

Lemma bop_sound o ta tb t va vb :
  bop_ty o ta tb = Some t -> has_type va ta = true -> has_type vb tb = true -> val_ok t (eval_bop o va vb).
Proof.
  intros H HA HB. destruct o; cbn [bop_ty eval_bop] in *.
  3,4: (injection H as <-; reflexivity).       (* == and != take any two values *)
  (* the others want both operands below one type, so both values have its canonical form *)
  all: destruct (sub ta _ && sub tb _) eqn:E; cbn [andb] in H; [|discriminate];
       destruct (operands_ok _ _ _ _ _ HA HB E) as [A B]; destruct va; try discriminate; destruct vb; try discriminate.
  1: { destruct (negb _); [|discriminate]. injection H as <-. apply arith_ok. }
  all: injection H as <-; reflexivity.
Qed.

Lemma ints_ok : forall vs ts, Forall2 (fun v t => has_type v t = true) vs ts ->
  forallb (fun t => sub t TInt) ts = true ->
  forallb (fun x => match x with VInt _ => true | _ => false end) vs = true.
Proof.
  induction 1 as [|v t vs ts HV _ IH]; intros FB; [reflexivity|].
  cbn [forallb] in *. apply andb_true_iff in FB as [E FB].
  pose proof (sub_sound _ _ _ HV E) as HI.
  rewrite (IH FB). destruct v; try discriminate. reflexivity.
Qed.

Lemma tys_sub_sound : forall vs a b, tys_sub a b = true ->
  Forall2 (fun v t => has_type v t = true) vs a -> Forall2 (fun v t => has_type v t = true) vs b.
Proof.
  unfold tys_sub. intros vs a. revert vs. induction a as [|x a IH]; intros vs [|y b] H F2; cbn in *; try discriminate.
  - exact F2.
  - apply andb_true_iff in H as [L H]. apply andb_true_iff in H as [E H].
    inversion F2; subst. constructor; [eapply sub_sound; eauto|]. apply IH; [rewrite L; exact H|assumption].
Qed.

Lemma args_sound : forall vs ps, Forall2 (fun v t => has_type v t = true) vs (map snd ps) ->
  length vs = length ps /\ args_ok vs ps = true /\ Forall2 R ps (zip_params ps vs).
Proof.
  induction vs as [|v vs IH]; intros [|[x t] ps] H; inversion H as [|? ? ? ? HV HVs]; subst; cbn.
  - repeat split; constructor.
  - destruct (IH ps HVs) as (L & A & Z). cbn [snd] in HV. rewrite HV, A. repeat split; auto.
    constructor; [split; auto|exact Z].
Qed.

Lemma arms_inv {A} (arms : list (pat * list tm)) (both : ident -> list tm -> list tm -> option A) a :
  match arms with
  | [(PSome x, b1); (PNone, b2)] => both x b1 b2
  | [(PNone, b2); (PSome x, b1)] => both x b1 b2
  | _ => None
  end = Some a ->
  exists x b1 b2, both x b1 b2 = Some a /\
    (forall w, pick arms (VSome w) = Some ([(x, w)], b1)) /\ pick arms VNone = Some ([], b2).
Proof.
  destruct arms as [|[[x1|] b1] [|[[x2|] b2] [|a3 arms]]]; try discriminate; intros H;
    [exists x1, b1, b2|exists x2, b2, b1]; repeat split; exact H.
Qed.

Theorem ev_sound F : fenv_ok F -> forall k n rt, sound_f rt (tc n F rt) (ev k F).
Proof.
  intros FOK. induction k as [|k IH]; intros n rt G r e t H OKr; [exact I|].
  destruct n as [|n]; [discriminate|].
  pose proof (IH n rt) as SF. pose proof H as TE.
  destruct e; cbn [tc ev] in H |- *.
  1-3: (injection H as <-; split; [reflexivity|exact OKr]).
  - (* list literal *)
    destruct (tc_list (tc n F rt) G l) as [ts|] eqn:TL; [|discriminate].
    pose proof (list_sound SF l G r ts TL OKr) as LS.
    destruct (ev_list (ev k F) r l) as [[vs r1]| | | |w0]; cbn [good]; auto.
    destruct LS as [F2 OK1]. split; [|exact OK1]. destruct ts as [|t0 ts].
    + injection H as <-. inversion F2. reflexivity.
    + destruct (forallb _ _ && _) eqn:FB; [|discriminate]. injection H as <-.
      apply andb_true_iff in FB as [FB _]. exact (ints_ok _ _ F2 FB).
  - (* variable *)
    pose proof (lookup_ok x G r OKr) as L. rewrite H in L. destruct L as (v & -> & HV). split; assumption.
  - (* binary operator *)
    destruct (tc n F rt G e1) as [ta|] eqn:T1; [|discriminate].
    destruct (tc n F rt G e2) as [tb|] eqn:T2; [|discriminate].
    apply (good_then (SF G r e1 ta T1 OKr)). intros va r1 HA OK1.
    apply (good_then (SF G r1 e2 tb T2 OK1)). intros vb r2 HB OK2.
    pose proof (bop_sound o ta tb t va vb H HA HB) as B. destruct (eval_bop o va vb); try contradiction; cbn [good]; auto.
  - (* call *)
    destruct (lookup f G) eqn:LF; [discriminate|].
    pose proof (lookup_ok f G r OKr) as L. rewrite LF in L. rewrite L.
    destruct (assoc f F) as [d|] eqn:AF; [|discriminate].
    destruct (tc_list (tc n F rt) G args) as [ts|] eqn:TL; [|discriminate].
    destruct (tys_sub ts (map snd (fparams d))) eqn:TS; [|discriminate]. injection H as <-.
    pose proof (list_sound SF args G r _ TL OKr) as LS.
    destruct (ev_list (ev k F) r args) as [[vs r1]| | | |w0]; cbn [good]; auto.
    destruct LS as [F2 OK1]. apply (tys_sub_sound vs _ _ TS) in F2.
    destruct (args_sound vs (fparams d) F2) as (LEN & AOK & ZOK).
    rewrite LEN, Nat.eqb_refl, AOK. cbn [negb].
    (* the body, checked with some fuel n' against the declared return type *)
    destruct (FOK f d AF) as (n' & tb & TB & TBE).
    assert (OKB : env_ok [fparams d] [zip_params (fparams d) vs]) by (constructor; [exact ZOK|constructor]).
    pose proof (stmts_sound (IH n' (Some (fret d))) (fbody d) _ _ tb TB OKB) as BS.
    destruct (ev_stmts (ev k F) [zip_params (fparams d) vs] (fbody d)) as [[v rb]| | | |w0]; cbn [good] in BS |- *; auto.
    + destruct BS as [HV _]. apply (sub_sound _ _ _ HV) in TBE. rewrite TBE. split; assumption.
    + cbn [ret_ok] in BS. rewrite BS. split; assumption.
  - (* println *)
    destruct (tc n F rt G e) as [ta|] eqn:T1; [|discriminate]. destruct (sub ta TStr) eqn:SB; [|discriminate]. injection H as <-.
    apply (good_then (good_sub SB (SF G r e ta T1 OKr))). intros va r1 HA OK1.
    destruct va; try discriminate. split; [reflexivity|exact OK1].
  - (* string_repr *)
    destruct (tc n F rt G e) as [ta|] eqn:T1; [|discriminate]. injection H as <-.
    apply (good_then (SF G r e ta T1 OKr)). intros va r1 _ OK1. split; [reflexivity|exact OK1].
  - discriminate.
  - (* assignment *)
    destruct (lookup x G) as [tx|] eqn:LX; [|discriminate].
    destruct (tc n F rt G e) as [tr|] eqn:T1; [|discriminate].
    destruct (sub tr tx) eqn:E; [|discriminate]. injection H as <-.
    apply (good_then (good_sub E (SF G r e tr T1 OKr))). intros v r1 HV OK1.
    destruct (update_ok x tx v G r1 OK1 LX HV) as (r2 & -> & OK2). split; [reflexivity|exact OK2].
  - (* += / -= *)
    destruct (lookup x G) as [tx|] eqn:LX; [|discriminate]. destruct tx; try discriminate.
    destruct (tc n F rt G e) as [tr|] eqn:T1; [|discriminate]. destruct (sub tr TInt) eqn:SB; [|discriminate]. injection H as <-.
    apply (good_then (good_sub SB (SF G r e tr T1 OKr))). intros v r1 HV OK1.
    pose proof (lookup_ok x G r1 OK1) as L. rewrite LX in L. destruct L as (w & -> & HW).
    destruct w as [a| | | | | | |]; try discriminate. destruct v as [b| | | | | | |]; try discriminate.
    unfold ret_int. destruct (in_i64 _); cbn [good]; auto.
    destruct (update_ok x TInt (VInt (if minus then a - b else a + b)) G r1 OK1 LX eq_refl) as (r2 & -> & OK2).
    split; [reflexivity|exact OK2].
  - (* if *)
    destruct el as [eb|].
    + destruct (tc n F rt G e) as [tcnd|] eqn:T1; [|discriminate].
      destruct (tc_stmts (tc n F rt) ([] :: G) th) as [t1|] eqn:TT; [|discriminate].
      destruct (tc_stmts (tc n F rt) ([] :: G) eb) as [t2|] eqn:TB; [|discriminate].
      destruct (sub tcnd TBool) eqn:SC; [|discriminate].
      apply join_sound in H as [S1 S2].
      apply (good_then (good_sub SC (SF G r e tcnd T1 OKr))). intros v r1 HV OK1.
      destruct v as [|[|]| | | | | |]; try discriminate.
      * apply (good_then (good_sub S1 (block_sound SF th G r1 t1 TT OK1))).
        intros v2 r2 HB OK2. split; assumption.
      * exact (good_sub S2 (block_sound SF eb G r1 t2 TB OK1)).
    + destruct (tc n F rt G e) as [tcnd|] eqn:T1; [|discriminate].
      destruct (tc_stmts (tc n F rt) ([] :: G) th) as [t1|] eqn:TT; [|discriminate].
      destruct (sub tcnd TBool) eqn:SC; [|discriminate]. injection H as <-.
      apply (good_then (good_sub SC (SF G r e tcnd T1 OKr))). intros v r1 HV OK1.
      destruct v as [|[|]| | | | | |]; try discriminate.
      * apply (good_then (block_sound SF th G r1 t1 TT OK1)).
        intros _ r2 _ OK2. split; [reflexivity|exact OK2].
      * split; [reflexivity|exact OK1].
  - (* while: the next round is the same, accepted, loop with the evaluator's smaller fuel *)
    destruct (tc n F rt G e) as [tcnd|] eqn:T1; [|discriminate].
    destruct (tc_stmts (tc n F rt) ([] :: G) b) as [t1|] eqn:TT; [|discriminate].
    destruct (sub tcnd TBool) eqn:SC; [|discriminate]. injection H as <-.
    apply (good_then (good_sub SC (SF G r e tcnd T1 OKr))). intros v r1 HV OK1.
    destruct v as [|[|]| | | | | |]; try discriminate.
    + apply (good_then (block_sound SF b G r1 t1 TT OK1)). intros _ r2 _ OK2.
      exact (IH (S n) rt G r2 _ _ TE OK2).
    + split; [reflexivity|exact OK1].
  - (* Some(e) *)
    destruct (tc n F rt G e) as [ta|] eqn:T1; [|discriminate]. injection H as <-.
    apply (good_then (SF G r e ta T1 OKr)). intros va r1 HA OK1. split; assumption.
  - (* None *)
    injection H as <-. split; [reflexivity|exact OKr].
  - (* match *)
    destruct (tc n F rt G e) as [ts|] eqn:T1; [|discriminate]. destruct ts as [| | | | | | |tp|]; try discriminate.
    apply arms_inv in H as (x & b1 & b2 & H & PS & PN).
    destruct (tc_stmts (tc n F rt) ([(x, tp)] :: G) b1) as [t1|] eqn:TB1; [|discriminate].
    destruct (tc_stmts (tc n F rt) ([] :: G) b2) as [t2|] eqn:TB2; [|discriminate].
    apply join_sound in H as [S1 S2].
    apply (good_then (SF G r e (TOpt tp) T1 OKr)). intros v r1 HV OK1. destruct v; try discriminate.
    + rewrite PS. apply (good_sub S1), (block_in_sound SF b1 _ _ G r1 t1 TB1); [|exact OK1].
      repeat constructor. exact HV.
    + rewrite PN. apply (good_sub S2), (block_in_sound SF b2 _ _ G r1 t2 TB2); [constructor|exact OK1].
  - (* for *)
    destruct (tc n F rt G e) as [ti|] eqn:T1; [|discriminate]. destruct ti; try discriminate.
    + destruct (tc_stmts (tc n F rt) ([(x, TInt)] :: G) b) as [t1|] eqn:TT; [|discriminate]. injection H as <-.
      apply (good_then (SF G r e TListInt T1 OKr)). intros v r1 HV OK1. destruct v; try discriminate.
      apply (for_sound SF x TInt b G t1 TT l r1); [|exact OK1].
      cbn [has_type] in HV. rewrite forallb_forall in *. intros v IN. specialize (HV v IN). destruct v; try discriminate. reflexivity.
    + destruct (tc_stmts (tc n F rt) ([(x, TNoValue)] :: G) b) as [t1|] eqn:TT; [|discriminate]. injection H as <-.
      apply (good_then (SF G r e TListEmpty T1 OKr)). intros v r1 HV OK1. destruct v; try discriminate.
      cbn [has_type] in HV. destruct l; [|discriminate].
      apply (for_sound SF x TNoValue b G t1 TT [] r1); [reflexivity|exact OK1].
  - (* return *)
    destruct rt as [tr|]; [|discriminate].
    destruct (tc n F (Some tr) G e) as [ta|] eqn:T1; [|discriminate].
    destruct (sub ta tr) eqn:E; [|discriminate]. injection H as <-.
    pose proof (good_sub E (SF G r e ta T1 OKr)) as G1.
    destruct (ev k F r e) as [[v r1]| | | |w0]; cbn [good] in *; auto. apply G1.
  - (* pair *)
    destruct (tc n F rt G e1) as [ta|] eqn:T1; [|discriminate].
    destruct (tc n F rt G e2) as [tb|] eqn:T2; [|discriminate]. injection H as <-.
    apply (good_then (SF G r e1 ta T1 OKr)). intros va r1 HA OK1.
    apply (good_then (SF G r1 e2 tb T2 OK1)). intros vb r2 HB OK2.
    split; [|exact OK2]. cbn [has_type]. rewrite HA, HB. reflexivity.
  - discriminate.
Qed.

Lemma assoc_in {A} x : forall (l : list (ident * A)) d, assoc x l = Some d -> In (x, d) l.
Proof.
  induction l as [|[y w] l IH]; intros d H; cbn [assoc] in H; [discriminate|].
  destruct (N.eqb x y) eqn:E.
  - apply N.eqb_eq in E. subst. injection H as ->. now left.
  - right. now apply IH.
Qed.

Lemma tc_prog_fenv_ok p : tc_prog p = true -> fenv_ok (pfuns p).
Proof.
  unfold tc_prog. intros H. apply andb_true_iff in H as [H _].
  rewrite forallb_forall in H. intros f d A. apply assoc_in in A. specialize (H _ A). cbn [snd] in H.
  unfold tc_fun in H. eexists.
  destruct (tc_stmts _ [fparams d] (fbody d)) as [t|] eqn:T; [|discriminate].
  exists t. split; [exact T|exact H].
Qed.

(* accepted programs never raise a type-related runtime error, whatever the fuel *)
Theorem tc_sound : forall p, tc_prog p = true -> forall fuel, run fuel p <> TypeError.
Proof.
  intros p H fuel. pose proof (tc_prog_fenv_ok p H) as FOK.
  unfold tc_prog in H. apply andb_true_iff in H as [_ H].
  destruct (tc_stmts _ [[]] (pmain p)) as [t|] eqn:T; [|discriminate].
  assert (OK0 : env_ok [[]] [[]]) by (repeat constructor).
  pose proof (stmts_sound (ev_sound _ FOK fuel _ None) (pmain p) _ _ t T OK0) as S.
  unfold run. destruct (ev_stmts (ev fuel (pfuns p)) [[]] (pmain p)) as [[v r]| | | |w0]; try discriminate. contradiction.
Qed.

(* The programs of the examples in Properties/C16.v. *)
(* fun add(a: Int, b: Int): Int { a + b }
   let x = add(1, 2)  let i = 0  while i < x { i += 1 }  println(string_repr(i))  i == 3 *)
Definition ex_add : fdef :=
  {| fparams := [(2%N, TInt); (3%N, TInt)]; fret := TInt; fbody := [TmBin (OArith 0) (TmVar 2%N) (TmVar 3%N)] |}.
Definition ex_good : program :=
  {| pfuns := [(1%N, ex_add)];
     pmain := [ TmLet 4%N (TmCall 1%N [TmInt 1; TmInt 2]);
                TmLet 5%N (TmInt 0);
                TmWhile (TmBin (OCmp 0) (TmVar 5%N) (TmVar 4%N)) [TmUpd false 5%N (TmInt 1)];
                TmPrintln (TmRepr (TmVar 5%N));
                TmBin OEq (TmVar 5%N) (TmInt 3) ] |}.

(* add(1, True) + "a" *)
Definition ex_bad : program :=
  {| pfuns := [(1%N, ex_add)]; pmain := [TmBin (OArith 0) (TmCall 1%N [TmInt 1; TmBool true]) (TmStr [])] |}.

(* fun first_big(l: List<Int>, k: Int): Option<Int> { for x in l { if x > k { return Some(x) } }  None }
   let r = first_big([1, 5, 9], 3)
   match r { Some(m) => { println(string_repr(m)) } None => { println("none") } }
   match first_big([], 0) { Some(m) => m + 1, None => 0 } *)
Definition ex_first_big : fdef :=
  {| fparams := [(2%N, TListInt); (3%N, TInt)]; fret := TOpt TInt;
     fbody := [ TmFor 4%N (TmVar 2%N)
                  [TmIf (TmBin (OCmp 2) (TmVar 4%N) (TmVar 3%N)) [TmReturn (TmSome (TmVar 4%N))] None];
                TmNone ] |}.
Definition ex_wide : program :=
  {| pfuns := [(1%N, ex_first_big)];
     pmain := [ TmLet 5%N (TmCall 1%N [TmList [TmInt 1; TmInt 5; TmInt 9]; TmInt 3]);
                TmMatch (TmVar 5%N) [(PSome 6%N, [TmPrintln (TmRepr (TmVar 6%N))]); (PNone, [TmPrintln (TmStr [])])];
                TmMatch (TmCall 1%N [TmList []; TmInt 0]) [(PSome 6%N, [TmBin (OArith 0) (TmVar 6%N) (TmInt 1)]); (PNone, [TmInt 0])] ] |}.

(* a match without the None arm *)
Definition ex_nonexh : program :=
  {| pfuns := []; pmain := [TmMatch TmNone [(PSome 6%N, [TmInt 1])]] |}.

(* fun swap(p: (Int, String)): (String, Int) { let (a, b) = p  (b, a) }
   let (s, n) = swap((3, "x"))   n + 1 *)
Definition ex_swap : fdef :=
  {| fparams := [(2%N, TPair TInt TStr)]; fret := TPair TStr TInt;
     fbody := [TmLetPair 3%N 4%N (TmVar 2%N); TmPair (TmVar 4%N) (TmVar 3%N)] |}.
Definition ex_pairs : program :=
  {| pfuns := [(1%N, ex_swap)];
     pmain := [TmLetPair 5%N 6%N (TmCall 1%N [TmPair (TmInt 3) (TmStr [120%N])]); TmBin (OArith 0) (TmVar 6%N) (TmInt 1)] |}.

(* destructuring something that is not a pair *)
Definition ex_badpair : program := {| pfuns := []; pmain := [TmLetPair 5%N 6%N (TmInt 1); TmVar 5%N] |}.
