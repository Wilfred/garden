(* Proofs about the prelude model (Prelude.v) against PreludeSpec.v.  The indices the Garden
   loops compute are counts (nat) read as Ints: on a string or list that fits in memory the
   wrapping arithmetic is exact, and each loop is compared with firstn / skipn / seq at those counts. *)
From Coq Require Import ZArith NArith List Bool Lia Sorting.Sorted Sorting.Permutation.
From Garden Require Import Base.Int64 ArithProps Prelude PreludeSpec.
Import ListNotations.
Open Scope Z_scope.

(* a string / list that fits in memory: two such lengths add up without wrapping *)
Definition small {A : Type} (l : list A) : Prop := zlen l < 2 ^ 62.

Lemma iadd_exact a b : - 2 ^ 63 <= a + b <= 2 ^ 63 - 1 -> iadd a b = a + b.
Proof. intro H. apply wrap64_id, in64_iff, H. Qed.
Lemma isub_exact a b : - 2 ^ 63 <= a - b <= 2 ^ 63 - 1 -> isub a b = a - b.
Proof. intro H. apply wrap64_id, in64_iff, H. Qed.
Lemma iadd_succ i : Z.of_nat i < 2 ^ 62 -> iadd (Z.of_nat i) 1 = Z.of_nat (S i).
Proof. intro H. rewrite iadd_exact; lia. Qed.

Lemma zlen_nonneg {A} (l : list A) : 0 <= zlen l.
Proof. apply Nat2Z.is_nonneg. Qed.
Lemma zlen_cons {A} (x : A) l : zlen (x :: l) = zlen l + 1.
Proof. unfold zlen. cbn [length]. lia. Qed.
Lemma zlen_nil {A} : zlen (@nil A) = 0.
Proof. reflexivity. Qed.

Lemma small_skipn {A} (l : list A) k : small l -> small (skipn k l).
Proof. unfold small, zlen. rewrite skipn_length. lia. Qed.
Lemma small_le {A B} (a : list A) (b : list B) : (length a <= length b)%nat -> small b -> small a.
Proof. unfold small, zlen. lia. Qed.

Lemma skip_z_skipn {A} (l : list A) : forall n, skip_z n l = skipn (Z.to_nat n) l.
Proof.
  induction l as [|x t IH]; intro n; cbn [skip_z].
  - now rewrite skipn_nil.
  - destruct (Z.leb_spec n 0).
    + now replace (Z.to_nat n) with O by lia.
    + rewrite IH. now replace (Z.to_nat n) with (S (Z.to_nat (n - 1))) by lia.
Qed.
Lemma take_z_firstn {A} (l : list A) : forall n, take_z n l = firstn (Z.to_nat n) l.
Proof.
  induction l as [|x t IH]; intro n; cbn [take_z].
  - now rewrite firstn_nil.
  - destruct (Z.leb_spec n 0).
    + now replace (Z.to_nat n) with O by lia.
    + rewrite IH. now replace (Z.to_nat n) with (S (Z.to_nat (n - 1))) by lia.
Qed.

Lemma firstn_length_app {A} (a t : list A) : firstn (length a) (a ++ t) = a.
Proof. rewrite firstn_app, Nat.sub_diag, firstn_all. apply app_nil_r. Qed.
Lemma skipn_length_app {A} (a t : list A) : skipn (length a) (a ++ t) = t.
Proof. now rewrite skipn_app, skipn_all, Nat.sub_diag. Qed.

Lemma substring_nat s i n : string_substring s (Z.of_nat i) (Z.of_nat i + Z.of_nat n) = Ok (firstn n (skipn i s)).
Proof.
  unfold string_substring. rewrite Z.gtb_ltb.
  destruct (Z.ltb_spec (Z.of_nat i) 0); [lia|].
  destruct (Z.ltb_spec (Z.of_nat i + Z.of_nat n) (Z.of_nat i)); [lia|].
  now rewrite take_z_firstn, skip_z_skipn, Z.add_simpl_l, !Nat2Z.id.
Qed.
Lemma substring_prefix s i : string_substring s 0 (Z.of_nat i) = Ok (firstn i s).
Proof. exact (substring_nat s 0 i). Qed.
Lemma substring_suffix s i : (i <= length s)%nat -> string_substring s (Z.of_nat i) (zlen s) = Ok (skipn i s).
Proof.
  intro H. unfold zlen. replace (Z.of_nat (length s)) with (Z.of_nat i + Z.of_nat (length s - i)) by lia.
  rewrite substring_nat. f_equal. apply firstn_all2. rewrite skipn_length. lia.
Qed.

Lemma str_eqb_eq a : forall b, str_eqb a b = true <-> a = b.
Proof.
  induction a as [|x a IH]; destruct b as [|y b]; cbn [str_eqb]; try (split; discriminate); [tauto|].
  rewrite andb_true_iff, N.eqb_eq, IH. split; [intros [-> ->]; reflexivity | intros [= -> ->]; auto].
Qed.
Lemma seqb_eq a b : seqb a b = true <-> a = b.
Proof. unfold seqb. destruct (list_eq_dec N.eq_dec a b); split; auto; discriminate. Qed.
Lemma str_eqb_seqb a b : str_eqb a b = seqb a b.
Proof. apply eq_true_iff_eq. now rewrite str_eqb_eq, seqb_eq. Qed.

Lemma prefixb_iff p : forall s, prefixb p s = true <-> is_prefix p s.
Proof.
  unfold is_prefix. induction p as [|a p IH]; intro s; cbn [prefixb].
  - split; [intros _; now exists s | reflexivity].
  - destruct s as [|b s].
    + split; [discriminate | intros [t H]; discriminate].
    + rewrite andb_true_iff, N.eqb_eq, IH. split.
      * intros [-> [t ->]]. now exists t.
      * intros [t [= -> ->]]. split; [reflexivity | now exists t].
Qed.

Lemma is_prefix_firstn p s : is_prefix p s <-> firstn (length p) s = p.
Proof.
  split.
  - intros [t ->]. apply firstn_length_app.
  - intro H. exists (skipn (length p) s). rewrite <- H at 1. symmetry. apply firstn_skipn.
Qed.

Theorem starts_with_meaning this s : starts_with this s = true <-> is_prefix s this.
Proof. apply prefixb_iff. Qed.
Theorem starts_with_spec this s : starts_with this s = spec_starts_with this s.
Proof.
  apply eq_true_iff_eq. unfold spec_starts_with.
  now rewrite starts_with_meaning, seqb_eq, is_prefix_firstn.
Qed.

Lemma is_suffix_rev p s : is_suffix p s <-> is_prefix (rev p) (rev s).
Proof.
  unfold is_suffix, is_prefix. split.
  - intros [t ->]. exists (rev t). apply rev_app_distr.
  - intros [t H]. exists (rev t). rewrite <- (rev_involutive s), H, rev_app_distr, rev_involutive. reflexivity.
Qed.
Theorem ends_with_meaning this s : ends_with this s = true <-> is_suffix s this.
Proof. unfold ends_with, string_ends_with. rewrite prefixb_iff. symmetry. apply is_suffix_rev. Qed.

Lemma is_suffix_skipn p s : is_suffix p s <-> (length p <= length s)%nat /\ skipn (length s - length p) s = p.
Proof.
  split.
  - intros [t ->]. rewrite app_length, Nat.add_sub. split; [lia | apply skipn_length_app].
  - intros [L H]. exists (firstn (length s - length p) s). rewrite <- H at 2. symmetry. apply firstn_skipn.
Qed.
Theorem ends_with_spec this s : ends_with this s = spec_ends_with this s.
Proof.
  apply eq_true_iff_eq. unfold spec_ends_with.
  now rewrite ends_with_meaning, is_suffix_skipn, andb_true_iff, Nat.leb_le, seqb_eq.
Qed.

Lemma matches_at_prefixb n s i : matches_at n s i = prefixb n (skipn i s).
Proof. symmetry. apply (starts_with_spec (skipn i s) n). Qed.

Lemma occurs_at_0 n s : occurs_at n s 0 <-> prefixb n s = true.
Proof.
  rewrite prefixb_iff. split.
  - intros (a & b & -> & L). apply length_zero_iff_nil in L as ->. now exists b.
  - intros [b ->]. now exists [], b.
Qed.
Lemma occurs_at_S n c t j : occurs_at n (c :: t) (S j) <-> occurs_at n t j.
Proof.
  split.
  - intros ([|x a] & b & E & L); [discriminate|]. injection E as -> ->. injection L as L. now exists a, b.
  - intros (a & b & -> & <-). now exists (c :: a), b.
Qed.

Lemma first_occurrence_unique n s i j : first_occurrence n s i -> first_occurrence n s j -> i = j.
Proof. intros [Oi Li] [Oj Lj]. apply Nat.le_antisymm; auto. Qed.
Lemma occurs_at_bound n s i : occurs_at n s i -> (i + length n <= length s)%nat.
Proof. intros (a & b & -> & <-). rewrite !app_length. lia. Qed.

Lemma str_find_meaning s n :
  match str_find s n with Some i => first_occurrence n s i | None => ~ occurs n s end.
Proof.
  induction s as [|c t IH]; cbn [str_find];
    (destruct (prefixb n _) eqn:P; [split; [now apply occurs_at_0 | intros; lia]|]).
  - intros [j O]. pose proof (occurs_at_bound _ _ _ O) as B. destruct j; [|cbn in B; lia].
    apply occurs_at_0 in O. congruence.
  - destruct (str_find t n) as [k|]; cbn [option_map].
    + destruct IH as [O L]. split; [now rewrite occurs_at_S|].
      intros [|j] Oj; [apply occurs_at_0 in Oj; congruence|]. apply occurs_at_S, L in Oj. lia.
    + intros [[|j] Oj]; [apply occurs_at_0 in Oj; congruence|]. apply IH. exists j. now apply -> occurs_at_S in Oj.
Qed.

Theorem str_find_none_iff s n : str_find s n = None <-> ~ occurs n s.
Proof.
  pose proof (str_find_meaning s n) as M. destruct (str_find s n) as [k|]; split; auto; [discriminate|].
  intro H. exfalso. apply H. exists k. apply M.
Qed.
Theorem str_find_first_occurrence s n i : str_find s n = Some i <-> first_occurrence n s i.
Proof.
  pose proof (str_find_meaning s n) as M. destruct (str_find s n) as [k|]; split.
  - now intros [= <-].
  - intro H. f_equal. exact (first_occurrence_unique _ _ _ _ M H).
  - discriminate.
  - intros [O _]. exfalso. apply M. now exists i.
Qed.

Lemma find_map_S p l : find p (map S l) = option_map S (find (fun j => p (S j)) l).
Proof. induction l as [|x r IH]; [reflexivity|]. cbn [map find]. rewrite IH. now destruct (p (S x)). Qed.
Lemma str_find_spec_find s n : str_find s n = spec_find n s.
Proof.
  unfold spec_find. induction s as [|c t IH]; cbn [str_find length].
  - cbn [seq find]. now rewrite matches_at_prefixb.
  - rewrite <- cons_seq, <- seq_shift. cbn [find]. now rewrite find_map_S, matches_at_prefixb, IH.
Qed.
Theorem spec_find_first_occurrence n s i : spec_find n s = Some i <-> first_occurrence n s i.
Proof. rewrite <- str_find_spec_find. apply str_find_first_occurrence. Qed.
Lemma spec_find_none_iff n s : spec_find n s = None <-> ~ occurs n s.
Proof. rewrite <- str_find_spec_find. apply str_find_none_iff. Qed.

Theorem index_of_spec this needle : index_of this needle = spec_index_of this needle.
Proof. unfold index_of, string_index_of, spec_index_of. now rewrite str_find_spec_find. Qed.
Theorem index_of_meaning this needle i :
  index_of this needle = Some (Z.of_nat i) <-> first_occurrence needle this i.
Proof.
  unfold index_of, string_index_of. rewrite <- str_find_first_occurrence.
  destruct (str_find this needle) as [k|]; cbn [option_map]; split; try discriminate.
  - intros [= H]. f_equal. lia.
  - intros [= ->]. reflexivity.
Qed.
Theorem index_of_none_meaning this needle : index_of this needle = None <-> ~ occurs needle this.
Proof.
  unfold index_of, string_index_of. rewrite <- str_find_none_iff.
  destruct (str_find this needle); cbn [option_map]; split; auto; discriminate.
Qed.

Lemma window_from_firstn_skipn {A} (l : list A) lo hi : forall k,
  window_from k l lo hi = firstn (Z.to_nat (hi - Z.max lo k)) (skipn (Z.to_nat (lo - k)) l).
Proof.
  induction l as [|x t IH]; intro k; cbn [window_from].
  - now rewrite skipn_nil, firstn_nil.
  - rewrite IH. destruct (Z.leb_spec lo k) as [L|L].
    + rewrite !Z.max_r by lia. replace (Z.to_nat (lo - k)) with O by lia. replace (Z.to_nat (lo - (k + 1))) with O by lia.
      cbn [skipn]. destruct (Z.ltb_spec k hi) as [H|H]; cbn [andb].
      * now replace (Z.to_nat (hi - k)) with (S (Z.to_nat (hi - (k + 1)))) by lia.
      * replace (Z.to_nat (hi - k)) with O by lia. now replace (Z.to_nat (hi - (k + 1))) with O by lia.
    + rewrite !Z.max_l by lia. now replace (Z.to_nat (lo - k)) with (S (Z.to_nat (lo - (k + 1)))) by lia.
Qed.

Theorem substring_spec this from to :
  substring this from to = match spec_substring this from to with Some r => Ok r | None => Exn end.
Proof.
  unfold substring, spec_substring, string_substring, window. rewrite Z.gtb_ltb.
  destruct (Z.ltb_spec from 0); destruct (Z.leb_spec 0 from); try lia; cbn [andb]; [reflexivity|].
  destruct (Z.ltb_spec to from); destruct (Z.leb_spec from to); try lia; [reflexivity|].
  now rewrite take_z_firstn, skip_z_skipn, window_from_firstn_skipn, Z.sub_0_r, Z.max_l.
Qed.

Lemma firstn_clamp {A} (l : list A) n m : Nat.min n (length l) = Nat.min m (length l) -> firstn n l = firstn m l.
Proof.
  assert (E : forall k, firstn (Nat.min k (length l)) l = firstn k l) by (intro k; now rewrite <- firstn_firstn, firstn_all).
  intro H. now rewrite <- (E n), H, E.
Qed.

(* list_slice on counts: clamp both ends to the length, never end before the start *)
Lemma slice_nat {A} (l : list A) a b : let n := length l in
  firstn (Nat.max (Nat.min b n) (Nat.min a n) - Nat.min a n) (skipn (Nat.min a n) l) = firstn (b - a) (skipn a l).
Proof.
  cbv zeta. destruct (Nat.le_gt_cases (length l) a) as [H|H].
  - rewrite !skipn_all2 by lia. now rewrite !firstn_nil.
  - rewrite (Nat.min_l a) by lia. apply firstn_clamp. rewrite skipn_length.
    now rewrite <- Nat.sub_max_distr_r, Nat.sub_diag, Nat.max_0_r, <- Nat.sub_min_distr_r, <- Nat.min_assoc, Nat.min_id.
Qed.

Theorem slice_spec {A} (this : list A) i j : slice this i j = spec_slice this i j.
Proof.
  unfold slice, list_slice, spec_slice, window. cbv zeta. rewrite window_from_firstn_skipn, Z.sub_0_r.
  fold (zlen this). set (jj := if j <? 0 then zlen this + j else j).
  rewrite !Z2Nat.inj_min, !Z2Nat.inj_max, (Z2Nat.inj_sub jj) by apply Z.le_max_r.
  rewrite Z2Nat.inj_max. unfold zlen. rewrite Nat2Z.id. cbn [Z.to_nat]. rewrite !Nat.max_0_r. apply slice_nat.
Qed.

Lemma substring_after s n i : small s -> (i + length n <= length s)%nat ->
  string_substring s (iadd (Z.of_nat i) (string_len n)) (string_len s) = Ok (skipn (i + length n) s).
Proof.
  unfold small, string_len, zlen. intros Hs H. rewrite iadd_exact, <- Nat2Z.inj_add by lia.
  apply substring_suffix, H.
Qed.

Theorem split_once_spec this needle : small this ->
  split_once this needle = Ok (spec_split_once this needle).
Proof.
  intro Hs. unfold split_once, spec_split_once, string_index_of. rewrite str_find_spec_find.
  destruct (spec_find needle this) as [i|] eqn:F; cbn [option_map]; [|reflexivity].
  apply spec_find_first_occurrence, proj1, occurs_at_bound in F.
  now rewrite substring_prefix, substring_after.
Qed.

Theorem strip_prefix_spec this prefix : small this ->
  strip_prefix this prefix = Ok (spec_strip_prefix this prefix).
Proof.
  intros _. unfold strip_prefix, spec_strip_prefix. rewrite <- starts_with_spec. unfold starts_with.
  destruct (string_starts_with this prefix) eqn:E; [|reflexivity].
  apply prefixb_iff in E. destruct E as [t ->]. apply substring_suffix. rewrite app_length. lia.
Qed.

Theorem strip_suffix_spec this suffix : small this ->
  strip_suffix this suffix = Ok (spec_strip_suffix this suffix).
Proof.
  intro Hs. unfold strip_suffix, spec_strip_suffix. rewrite <- ends_with_spec. unfold ends_with.
  destruct (string_ends_with this suffix) eqn:E; [|reflexivity].
  apply (ends_with_meaning this suffix) in E. destruct E as [t ->].
  unfold small, string_len, zlen in *. rewrite app_length, Nat.add_sub, Nat2Z.inj_add in *.
  now rewrite isub_exact, Z.add_simpl_r, substring_prefix by lia.
Qed.

Lemma nonempty_length {A} (l : list A) : l <> [] -> (0 < length l)%nat.
Proof. destruct l; [congruence | cbn; lia]. Qed.

Lemma split_loop_spec needle : needle <> [] -> forall fuel f parts s, small s -> (length s < fuel)%nat -> (length s <= f)%nat ->
  split_loop string_index_of fuel needle parts s = Ok (parts ++ split_std f needle s).
Proof.
  intro Hn. pose proof (nonempty_length _ Hn) as Ln.
  induction fuel as [|fuel IH]; intros f parts s Hs L Lf; [lia|].
  cbn [split_loop]. unfold string_index_of. rewrite str_find_spec_find.
  destruct (spec_find needle s) as [i|] eqn:F; cbn [option_map]; [|destruct f; cbn [split_std]; now rewrite ?F].
  pose proof F as B. apply spec_find_first_occurrence, proj1, occurs_at_bound in B.
  destruct f as [|f]; [lia|]. cbn [split_std]. rewrite F, substring_prefix, substring_after by (auto; lia). cbn [bind].
  rewrite (IH f) by (auto using small_skipn; rewrite skipn_length; lia).
  unfold list_append. now rewrite <- app_assoc.
Qed.

Theorem split_spec this needle : small this ->
  split (fuel_of_string this) this needle = Ok (spec_split this needle).
Proof.
  intro Hs. unfold split, spec_split, fuel_of_string.
  destruct this as [|c t]; [reflexivity|]. cbn [str_eqb].
  destruct needle as [|d u]; [reflexivity|]. cbn [str_eqb].
  apply (split_loop_spec (d :: u)) with (parts := []); [discriminate | exact Hs | lia | lia].
Qed.

Theorem split_std_Split n : n <> [] -> forall f s, (length s <= f)%nat -> Split n s (split_std f n s).
Proof.
  intro Hn. pose proof (nonempty_length _ Hn) as Ln.
  induction f as [|f IH]; intros s L.
  - apply Split_last. intros [i O]. apply occurs_at_bound in O. lia.
  - cbn [split_std]. destruct (spec_find n s) as [i|] eqn:F.
    + apply spec_find_first_occurrence in F.
      apply Split_cons; [exact F|]. apply IH. apply proj1, occurs_at_bound in F. rewrite skipn_length. lia.
    + apply Split_last. now apply spec_find_none_iff.
Qed.

Lemma spec_join_cons sep x r : r <> [] -> spec_join sep (x :: r) = x ++ sep ++ spec_join sep r.
Proof. destruct r as [|y r']; [congruence|]. intros _. cbn [spec_join flat_map]. now rewrite <- app_assoc. Qed.

Lemma skipn_occurrence {A} (a n b : list A) : skipn (length a + length n) (a ++ n ++ b) = b.
Proof. rewrite app_assoc, <- app_length. apply skipn_length_app. Qed.

Theorem Split_join n s parts : Split n s parts -> spec_join n parts = s.
Proof.
  induction 1 as [s H | s i rest F H IH].
  - cbn. apply app_nil_r.
  - rewrite spec_join_cons, IH by (destruct H; discriminate).
    destruct F as [(a & b & -> & <-) _]. now rewrite firstn_length_app, skipn_occurrence.
Qed.

Theorem Split_functional n s p1 : Split n s p1 -> forall p2, Split n s p2 -> p1 = p2.
Proof.
  induction 1 as [s H | s i rest F H IH]; intros p2 H2; inversion H2 as [s' H' | s' i' rest' F' H'']; subst.
  - reflexivity.
  - exfalso. apply H. exists i'. apply F'.
  - exfalso. apply H'. exists i. apply F.
  - rewrite (first_occurrence_unique _ _ _ _ F F') in *. f_equal. now apply IH.
Qed.

Theorem Split_parts_free n s parts : n <> [] -> Split n s parts -> Forall (fun p => ~ occurs n p) parts.
Proof.
  intro Hn. apply nonempty_length in Hn.
  induction 1 as [s H | s i rest F H IH]; constructor; auto.
  intros [j O]. destruct F as [(a & b & -> & <-) Least].
  rewrite firstn_length_app in O. destruct O as (a' & b' & E' & La').
  assert (L : (length a' + length n + length b' = length a)%nat) by (rewrite E', !app_length; lia).
  assert (X : (length a <= j)%nat).
  { apply Least. exists a', (b' ++ n ++ b). split; [|exact La']. rewrite E'. now rewrite <- !app_assoc. }
  lia.
Qed.

Theorem split_meaning this needle parts : small this -> this <> [] -> needle <> [] ->
  split (fuel_of_string this) this needle = Ok parts ->
  Split needle this parts /\ spec_join needle parts = this /\ Forall (fun p => ~ occurs needle p) parts.
Proof.
  intros Hs Ht Hn H. rewrite split_spec in H by exact Hs. injection H as <-.
  assert (S : Split needle this (spec_split this needle)).
  { unfold spec_split. destruct this; [congruence|]. destruct needle; [congruence|]. apply split_std_Split; [discriminate | lia]. }
  split; [exact S|]. split; [eapply Split_join; eauto | eapply Split_parts_free; eauto].
Qed.

Lemma join_loop_false sep items : forall joined,
  join_loop sep false items joined = joined ++ flat_map (fun y => sep ++ y) items.
Proof.
  induction items as [|x r IH]; intro joined; cbn [join_loop flat_map].
  - now rewrite app_nil_r.
  - rewrite IH. now rewrite <- !app_assoc.
Qed.
Theorem join_spec this items : join this items = spec_join this items.
Proof.
  unfold join, string_join, spec_join. destruct items as [|x r]; [reflexivity|].
  cbn [join_loop]. rewrite join_loop_false. reflexivity.
Qed.

(* The loop of replace is the loop of split, with `after` put behind every part but the last. *)
Fixpoint weave (a : str) (l : list str) : list str :=
  match l with
  | [] => []
  | x :: r => match r with [] => [x] | _ => x :: a :: weave a r end
  end.
Lemma weave_cons a x r : r <> [] -> weave a (x :: r) = x :: a :: weave a r.
Proof. destruct r; [congruence | reflexivity]. Qed.
Lemma join_weave a l : spec_join [] (weave a l) = spec_join a l.
Proof.
  induction l as [|x r IH]; [reflexivity|]. destruct r as [|y r']; [reflexivity|].
  rewrite weave_cons, !spec_join_cons, IH by (try destruct r'; discriminate). reflexivity.
Qed.
Lemma weave_snoc a ps s : weave a (ps ++ [s]) = flat_map (fun p => [p; a]) ps ++ [s].
Proof.
  induction ps as [|x ps IH]; [reflexivity|]. cbn [app flat_map].
  rewrite weave_cons, IH by (destruct ps; discriminate). reflexivity.
Qed.

Lemma replace_loop_split_loop index_of before after : forall fuel ps s,
  replace_loop index_of fuel before after (flat_map (fun p => [p; after]) ps) s =
  let* r := split_loop index_of fuel before ps s in Ok (weave after r).
Proof.
  induction fuel as [|fuel IH]; intros ps s; [reflexivity|]. cbn [replace_loop split_loop]. unfold list_append.
  destruct (index_of s before); [|cbn [bind]; now rewrite weave_snoc].
  destruct (string_substring s 0 _) as [p| |]; try reflexivity. destruct (string_substring s _ _) as [s'| |]; try reflexivity.
  cbn [bind]. rewrite <- IH, flat_map_app, <- app_assoc. reflexivity.
Qed.

Theorem replace_spec this before after : small this ->
  replace (fuel_of_string this) this before after = Ok (spec_replace this before after).
Proof.
  intro Hs. unfold replace, spec_replace, fuel_of_string.
  destruct before as [|d u]; [reflexivity|]. cbn [str_eqb].
  rewrite (replace_loop_split_loop _ _ _ _ []), (split_loop_spec (d :: u)) with (f := length this); [| discriminate | exact Hs | lia | lia]. cbn [bind app].
  f_equal. change (string_join [] ?p) with (join [] p). rewrite join_spec. apply join_weave.
Qed.
Theorem replace_meaning this before after : before <> [] ->
  exists parts, Split before this parts /\ spec_replace this before after = spec_join after parts.
Proof.
  intro Hn. exists (split_std (length this) before this). split.
  - apply split_std_Split; auto.
  - unfold spec_replace. destruct before; [congruence | reflexivity].
Qed.

Lemma existsb_find {A} (p : A -> bool) l : existsb p l = match find p l with Some _ => true | None => false end.
Proof. induction l as [|x r IH]; [reflexivity|]. cbn [existsb find]. now destruct (p x). Qed.

Theorem spec_contains_meaning s n : spec_contains s n = true <-> occurs n s.
Proof.
  unfold spec_contains. rewrite existsb_find. fold (spec_find n s). destruct (spec_find n s) as [i|] eqn:F.
  - split; [|reflexivity]. intros _. exists i. now apply spec_find_first_occurrence.
  - split; [discriminate|]. intro O. now apply spec_find_none_iff in F.
Qed.

Lemma no_match_beyond n s a k : (length s < a + length n)%nat -> (a + k <= S (length s))%nat ->
  existsb (matches_at n s) (seq a k) = false.
Proof.
  intros H K. apply not_true_iff_false. rewrite existsb_exists. intros (j & Hj & M). apply in_seq in Hj.
  apply seqb_eq, (f_equal (@length _)) in M. rewrite firstn_length, skipn_length in M. lia.
Qed.

(* the loop tries the offsets i, i+1, ... and stops after d = the last one at which the needle still fits *)
Lemma contains_loop_spec s n d : small s -> (d + length n = length s)%nat ->
  forall k i fuel, (i + k = S (length s))%nat -> (k < fuel)%nat ->
  contains_loop fuel s n (Z.of_nat i) = Ok (existsb (matches_at n s) (seq i k)).
Proof.
  unfold small, zlen. intros Hs Hd.
  assert (Hz : isub (string_len s) (string_len n) = Z.of_nat d) by (unfold string_len, zlen; rewrite isub_exact; lia).
  induction k as [|k IH]; intros i fuel Hi Hf; (destruct fuel as [|fuel]; [lia|]); cbn [contains_loop]; rewrite Hz;
    (destruct (Z.leb_spec (Z.of_nat i) (Z.of_nat d)); [|now rewrite no_match_beyond by lia]); [lia|].
  unfold string_len, zlen. rewrite iadd_succ, iadd_exact, substring_nat by lia. cbn [bind].
  rewrite str_eqb_seqb. fold (matches_at n s i). cbn [seq existsb]. destruct (matches_at n s i); [reflexivity|].
  apply IH; lia.
Qed.

Theorem contains_spec this substring : small this ->
  contains (fuel_of_string this) this substring = Ok (spec_contains this substring).
Proof.
  intro Hs. unfold contains, spec_contains, fuel_of_string, string_len, zlen.
  destruct (Z.gtb_spec (Z.of_nat (length substring)) (Z.of_nat (length this))) as [E|E].
  - now rewrite no_match_beyond by lia.
  - change 0 with (Z.of_nat 0). apply (contains_loop_spec this substring (length this - length substring)); [exact Hs | lia..].
Qed.

(* a `for` loop that appends to its result: F says what the remaining items will add *)
Lemma fold_left_append {A B} (step : list B -> A -> list B) (F : list A -> list B) :
  F [] = [] -> (forall acc x r, step acc x ++ F r = acc ++ F (x :: r)) ->
  forall l acc, fold_left step l acc = acc ++ F l.
Proof.
  intros H0 H. induction l as [|x r IH]; intro acc; cbn [fold_left].
  - now rewrite H0, app_nil_r.
  - now rewrite IH, H.
Qed.

Theorem concat_spec {A} (this other : list A) : concat this other = spec_concat this other.
Proof.
  apply (fold_left_append _ (fun l => l)); [reflexivity|].
  intros acc x r. unfold list_append. now rewrite <- app_assoc.
Qed.
Theorem filter_spec {A} (this : list A) f : filter this f = spec_filter this f.
Proof.
  apply (fold_left_append _ (List.filter f)); [reflexivity|].
  intros acc x r. cbn [List.filter]. destruct (f x); [unfold list_append; now rewrite <- app_assoc | reflexivity].
Qed.
Theorem map_spec {A B} (this : list A) (f : A -> B) : map_ this f = spec_map this f.
Proof.
  apply (fold_left_append _ (List.map f)); [reflexivity|].
  intros acc x r. unfold list_append. now rewrite <- app_assoc.
Qed.

Lemma enumerate_fold {A} (l : list A) : forall acc k, Z.of_nat (k + length l) < 2 ^ 62 ->
  fold_left (fun '(items, i) item => (list_append items (i, item), iadd i 1)) l (acc, Z.of_nat k)
  = (acc ++ combine (map Z.of_nat (seq k (length l))) l, Z.of_nat (k + length l)).
Proof.
  induction l as [|x r IH]; intros acc k H; cbn [fold_left length seq map combine].
  - now rewrite app_nil_r, Nat.add_0_r.
  - cbn [length] in H. rewrite iadd_succ, IH by lia. unfold list_append. rewrite <- app_assoc, Nat.add_succ_r. reflexivity.
Qed.
Theorem enumerate_spec {A} (this : list A) : small this -> enumerate this = spec_enumerate this.
Proof. intro Hs. unfold enumerate. change 0 with (Z.of_nat 0). now rewrite enumerate_fold. Qed.

Lemma lindex_of_loop_spec {A} (eqb : A -> A -> bool) v (l : list A) : forall k,
  lindex_of_loop eqb (combine (map Z.of_nat (seq k (length l))) l) v
  = option_map (fun j => Z.of_nat (k + j)) (first_index (fun y => eqb y v) l).
Proof.
  induction l as [|x r IH]; intro k; cbn [length seq map combine lindex_of_loop first_index]; [reflexivity|].
  destruct (eqb x v); cbn [option_map]; [now rewrite Nat.add_0_r|].
  rewrite IH. destruct (first_index (fun y => eqb y v) r); cbn [option_map]; [|reflexivity]. now rewrite Nat.add_succ_r.
Qed.
Theorem lindex_of_spec {A} (eqb : A -> A -> bool) (this : list A) value : small this ->
  lindex_of eqb this value = spec_lindex_of eqb this value.
Proof.
  intro Hs. unfold lindex_of, spec_lindex_of. rewrite enumerate_spec by exact Hs. unfold spec_enumerate.
  rewrite lindex_of_loop_spec. destruct (first_index _ this); reflexivity.
Qed.
Theorem first_index_meaning {A} (p : A -> bool) (l : list A) i :
  first_index p l = Some i <->
  (exists x, nth_error l i = Some x /\ p x = true) /\ forall j y, (j < i)%nat -> nth_error l j = Some y -> p y = false.
Proof.
  revert i. induction l as [|x r IH]; intro i; cbn [first_index].
  - split; [discriminate | intros [(y & H & _) _]; destruct i; discriminate].
  - destruct (p x) eqn:E.
    + split.
      * intros [= <-]. split; [exists x; auto | intros; lia].
      * intros [(y & H & Py) L]. destruct i as [|i]; [reflexivity|].
        specialize (L 0%nat x ltac:(lia) eq_refl). congruence.
    + split.
      * destruct (first_index p r) as [k|] eqn:F; [|discriminate]. intros [= <-].
        destruct (proj1 (IH k) eq_refl) as [(y & H & Py) L]. split; [exists y; auto|].
        intros [|j] z Hj Hz; [cbn in Hz; congruence | cbn in Hz; eapply L; eauto; lia].
      * intros [(y & H & Py) L]. destruct i as [|i]; [cbn in H; congruence|]. cbn in H.
        assert (X : first_index p r = Some i).
        { apply IH. split; [exists y; auto|]. intros j z Hj Hz. apply (L (S j) z); [lia | exact Hz]. }
        now rewrite X.
Qed.

Theorem lcontains_spec {A} (eqb : A -> A -> bool) (this : list A) item :
  lcontains eqb this item = spec_lcontains eqb this item.
Proof.
  unfold lcontains, spec_lcontains. induction this as [|x r IH]; cbn [list_contains existsb]; [reflexivity|].
  rewrite IH. now destruct (eqb x item).
Qed.

Theorem get_spec {A} (this : list A) index : get this index = spec_get this index.
Proof.
  unfold get, list_get, spec_get, zlen.
  (* the two range tests are each other's negation *)
  rewrite Z.geb_leb, Z.leb_antisym, (Z.ltb_antisym 0), <- negb_andb, andb_comm.
  now destruct (_ && _).
Qed.
Theorem llen_spec {A} (this : list A) : llen this = spec_llen this.
Proof. reflexivity. Qed.
Theorem first_spec {A} (this : list A) : first this = spec_first this.
Proof. unfold first, list_get, spec_first. destruct this; reflexivity. Qed.
Theorem last_spec {A} (this : list A) : small this -> last this = spec_last this.
Proof.
  unfold small, last, spec_last, list_len, zlen. intro Hs. rewrite isub_exact by lia.
  induction this as [|x t _] using rev_ind; [reflexivity|].
  rewrite rev_unit. unfold list_get, zlen. rewrite app_length, Nat.add_1_r.
  destruct (Z.geb_spec (Z.of_nat (S (length t)) - 1) (Z.of_nat (S (length t)))); [lia|].
  destruct (Z.ltb_spec (Z.of_nat (S (length t)) - 1) 0); [lia|].
  replace (Z.to_nat (Z.of_nat (S (length t)) - 1)) with (length t) by lia.
  now rewrite nth_error_app2, Nat.sub_diag.
Qed.

Lemma range_loop_spec j : j <= 2 ^ 63 - 1 -> forall n i items fuel, - 2 ^ 63 <= i -> n = Z.to_nat (j - i) -> (n < fuel)%nat ->
  range_loop fuel i j items = Ok (items ++ map (fun k => i + Z.of_nat k) (seq 0 n)).
Proof.
  intro Hj. induction n as [|n IH]; intros i items fuel Hi Hn Hf; (destruct fuel as [|fuel]; [lia|]);
    cbn [range_loop]; destruct (Z.ltb_spec i j); try lia.
  - cbn. now rewrite app_nil_r.
  - rewrite iadd_exact, IH by lia.
    unfold list_append. rewrite <- app_assoc, <- cons_seq, <- seq_shift. cbn [app map]. rewrite map_map, Z.add_0_r.
    do 3 f_equal. apply map_ext. intro k. lia.
Qed.
Theorem range_spec i j : in64 i = true -> in64 j = true -> range (fuel_of_range i j) i j = Ok (spec_range i j).
Proof.
  rewrite !in64_iff. intros Hi Hj. unfold range, fuel_of_range, spec_range.
  now rewrite (range_loop_spec j (proj2 Hj) (Z.to_nat (j - i))) by (auto; lia).
Qed.

Theorem max_spec x y : max x y = spec_max x y.
Proof. unfold max, spec_max. destruct (Z.geb_spec x y); lia. Qed.
Theorem min_spec x y : min x y = spec_min x y.
Proof. unfold min, spec_min. destruct (Z.leb_spec x y); lia. Qed.

Lemma slice_tail {A} (x : A) t : slice (x :: t) 1 (llen (x :: t)) = t.
Proof.
  rewrite slice_spec. unfold spec_slice, llen, list_len, window. rewrite zlen_cons. pose proof (zlen_nonneg t).
  destruct (Z.ltb_spec (zlen t + 1) 0); [lia|]. rewrite window_from_firstn_skipn.
  change (skipn (Z.to_nat (1 - 0)) (x :: t)) with t. apply firstn_all2. unfold zlen. lia.
Qed.

Lemma filter_partition_perm {A} (f : A -> bool) l :
  Permutation l (List.filter f l ++ List.filter (fun x => negb (f x)) l).
Proof.
  induction l as [|x r IH]; [constructor|]. cbn [List.filter]. destruct (f x); cbn [negb app].
  - now constructor.
  - now apply Permutation_cons_app.
Qed.

Lemma SS_app a b : StronglySorted Z.le a -> StronglySorted Z.le b -> (forall x y, In x a -> In y b -> x <= y) ->
  StronglySorted Z.le (a ++ b).
Proof.
  induction 1 as [|x a Ha IH Fx]; intros Hb H; [exact Hb|]. cbn [app]. constructor.
  - apply IH; auto. intros; apply H; auto. now right.
  - apply Forall_app. split; [exact Fx|]. apply Forall_forall. intros y Hy. apply H; auto. now left.
Qed.

Lemma filter_len {A} (f : A -> bool) l : (length (List.filter f l) <= length l)%nat.
Proof. induction l as [|x r IH]; cbn [List.filter length]; [lia|]. destruct (f x); cbn [length]; lia. Qed.

(* quicksort: the pivot goes between the sorted smaller and the sorted other items; each
   recursive call is on a shorter list, so the length bounds the depth *)
Lemma sort_nums_sorted : forall fuel items, small items -> (length items < fuel)%nat ->
  exists r, sort_nums fuel items = Ok r /\ StronglySorted Z.le r /\ Permutation items r.
Proof.
  induction fuel as [|fuel IH]; intros items Hs L; [lia|]. cbn [sort_nums].
  destruct items as [|p t].
  - exists []. repeat split; constructor.
  - rewrite first_spec. cbn [spec_first hd_error]. rewrite slice_tail, !filter_spec. unfold spec_filter.
    cbn [length] in L.
    assert (St : forall f, small (List.filter f t) /\ (length (List.filter f t) < fuel)%nat).
    { intro f. pose proof (filter_len f t). split; [eapply small_le; [|exact Hs]; cbn [length]|]; lia. }
    destruct (IH (List.filter (fun x => x <? p) t)) as (a & Ea & Sa & Pa); [apply St..|].
    destruct (IH (List.filter (fun x => x >=? p) t)) as (b & Eb & Sb & Pb); [apply St..|].
    rewrite Ea, Eb. cbn [bind]. rewrite !concat_spec. unfold spec_concat.
    assert (Ha : forall x, In x a -> x < p).
    { intros x Hx. apply (Permutation_in _ (Permutation_sym Pa)), filter_In in Hx. apply Z.ltb_lt, Hx. }
    assert (Hb : forall y, In y b -> p <= y).
    { intros y Hy. apply (Permutation_in _ (Permutation_sym Pb)), filter_In in Hy. apply Z.geb_le, Hy. }
    exists ((a ++ [p]) ++ b). split; [reflexivity|]. split.
    + apply SS_app; [apply SS_app; [exact Sa | repeat constructor |] | exact Sb |].
      * intros x y Hx [<-|[]]. apply Ha in Hx. lia.
      * intros x y Hx Hy. apply Hb in Hy. apply in_app_or in Hx. destruct Hx as [Hx|[<-|[]]]; [apply Ha in Hx; lia | exact Hy].
    + rewrite <- app_assoc. apply Permutation_cons_app. rewrite <- Pa, <- Pb.
      rewrite (filter_ext (fun x => x >=? p) (fun x => negb (x <? p))) by (intro; now rewrite Z.geb_leb, Z.leb_antisym).
      apply filter_partition_perm.
Qed.

Theorem sort_nums_spec items : small items ->
  exists r, sort_nums (fuel_of_list items) items = Ok r /\ is_sort_of items r.
Proof.
  intro Hs. destruct (sort_nums_sorted (fuel_of_list items) items Hs) as (r & E & S & P); [unfold fuel_of_list; lia|].
  exists r. split; [exact E|]. split; [now apply StronglySorted_Sorted | exact P].
Qed.

Lemma insert_sorted_perm x l : Permutation (x :: l) (insert_sorted x l).
Proof.
  induction l as [|y t IH]; cbn [insert_sorted]; [reflexivity|].
  destruct (x <=? y); [reflexivity|]. rewrite perm_swap. now constructor.
Qed.
Lemma insert_sorted_SS x l : StronglySorted Z.le l -> StronglySorted Z.le (insert_sorted x l).
Proof.
  induction 1 as [|y t Ht IH Fy]; cbn [insert_sorted]; [repeat constructor|].
  destruct (Z.leb_spec x y) as [E|E].
  - constructor; [now constructor|]. constructor; [exact E|]. eapply Forall_impl; [|exact Fy]. intros; cbn in *; lia.
  - constructor; [exact IH|]. rewrite <- (insert_sorted_perm x t). constructor; [lia | exact Fy].
Qed.
Theorem spec_sort_is_sort l : is_sort_of l (spec_sort l).
Proof.
  unfold is_sort_of, spec_sort. induction l as [|x t [S P]]; cbn [fold_right]; [split; constructor|].
  split.
  - apply StronglySorted_Sorted, insert_sorted_SS, Sorted_StronglySorted, S. exact Z.le_trans.
  - rewrite <- insert_sorted_perm. now constructor.
Qed.
Lemma SS_perm_unique a : StronglySorted Z.le a -> forall b, StronglySorted Z.le b -> Permutation a b -> a = b.
Proof.
  induction 1 as [|x a Ha IH Fx]; intros b Hb P.
  - apply Permutation_nil in P. now subst.
  - destruct b as [|y b]; [apply Permutation_sym, Permutation_nil in P; discriminate|].
    inversion Hb as [|? ? Hb' Fy]; subst.
    assert (x = y).
    { assert (I1 : In x (y :: b)) by (apply (Permutation_in _ P); now left).
      assert (I2 : In y (x :: a)) by (apply (Permutation_in _ (Permutation_sym P)); now left).
      rewrite Forall_forall in Fx, Fy.
      destruct I1 as [->|I1]; [reflexivity|]. destruct I2 as [->|I2]; [reflexivity|].
      specialize (Fx _ I2). specialize (Fy _ I1). lia. }
    subst y. f_equal. apply IH; [exact Hb'|]. eapply Permutation_cons_inv; eauto.
Qed.
Theorem sort_nums_spec_exec items : small items ->
  sort_nums (fuel_of_list items) items = Ok (spec_sort items).
Proof.
  intro Hs. destruct (sort_nums_sorted (fuel_of_list items) items Hs) as (r & E & S & P); [unfold fuel_of_list; lia|].
  rewrite E. f_equal. destruct (spec_sort_is_sort items) as [S' P'].
  (* a sorted permutation is unique, and spec_sort is one *)
  apply SS_perm_unique; [exact S | now apply Sorted_StronglySorted; [exact Z.le_trans|] | now rewrite <- P].
Qed.

Theorem chars_spec this : chars this = spec_chars this.
Proof. reflexivity. Qed.
Theorem len_spec this : len this = spec_len this.
Proof. reflexivity. Qed.
Theorem chars_join this : spec_join [] (chars this) = this.
Proof.
  unfold chars, string_chars. induction this as [|c t IH]; [reflexivity|].
  cbn [map]. destruct t as [|d u]; [reflexivity|].
  rewrite spec_join_cons by discriminate. rewrite IH. reflexivity.
Qed.

Lemma substring_before_empty s : string_substring s 0 0 = Ok [].
Proof. exact (substring_prefix s 0). Qed.
Lemma substring_after_empty s : string_substring s (iadd 0 (string_len [])) (string_len s) = Ok s.
Proof. apply (substring_suffix s 0). lia. Qed.

Lemma split_loop_stuck index_of s : index_of s [] = Some 0 ->
  forall fuel parts, split_loop index_of fuel [] parts s = OutOfFuel.
Proof.
  intro H. induction fuel as [|fuel IH]; intro parts; [reflexivity|]. cbn [split_loop].
  (* the empty needle found at offset 0 cuts off an empty part, and the rest is the whole string again *)
  rewrite H, substring_before_empty, substring_after_empty. apply IH.
Qed.

(* without the early return on the empty needle (split_old, replace_old) both methods run out of every fuel on
   it, whatever the non-empty string *)
Theorem split_old_diverges s : s <> [] -> forall fuel, split_old fuel s [] = OutOfFuel.
Proof.
  intros Hs fuel. destruct s as [|c t]; [congruence|]. apply split_loop_stuck. reflexivity.
Qed.
Theorem replace_old_diverges s after : s <> [] -> forall fuel, replace_old fuel s [] after = OutOfFuel.
Proof.
  intros Hs fuel. destruct s as [|c t]; [congruence|]. unfold replace_old.
  now rewrite (replace_loop_split_loop _ _ _ _ []), split_loop_stuck.
Qed.
Theorem split_old_refuted : forall fuel, split_old fuel [97%N] [] = OutOfFuel.
Proof. apply split_old_diverges. discriminate. Qed.
Theorem replace_old_refuted : forall fuel after, replace_old fuel [97%N] [] after = OutOfFuel.
Proof. intros fuel after. now apply replace_old_diverges. Qed.
Theorem index_of_old_refuted : string_index_of_old [] [] = None /\ spec_index_of [] [] = Some 0.
Proof. split; reflexivity. Qed.

Lemma drop_spaces_cons c t : drop_spaces (c :: t) = if N.eqb c 32 then drop_spaces t else c :: t.
Proof.
  destruct c as [|p]; [reflexivity|].
  do 6 (destruct p as [p|p|]; try reflexivity).
Qed.
Lemma drop_spaces_len s : (length (drop_spaces s) <= length s)%nat.
Proof. induction s as [|c t IH]; [cbn; lia|]. rewrite drop_spaces_cons. destruct (N.eqb c 32); cbn [length]; lia. Qed.
Lemma drop_spaces_skipn s : skipn (length s - length (drop_spaces s)) s = drop_spaces s.
Proof.
  induction s as [|c t IH]; [reflexivity|]. rewrite drop_spaces_cons. destruct (N.eqb c 32).
  - pose proof (drop_spaces_len t). cbn [length]. now rewrite Nat.sub_succ_l.
  - now rewrite Nat.sub_diag.
Qed.
Lemma skipn_S_cons {A} (l : list A) : forall i c t, skipn i l = c :: t -> skipn (S i) l = t.
Proof.
  induction l as [|x r IH]; intros i c t H.
  - rewrite skipn_nil in H. discriminate.
  - destruct i as [|i]; cbn [skipn] in *; [now injection H as _ -> | eapply IH; eauto].
Qed.

(* both loops test one character: substring(i, i + 1) != " " *)
Lemma substring_char s i : small s -> (i < length s)%nat ->
  string_substring s (Z.of_nat i) (iadd (Z.of_nat i) 1) = Ok (firstn 1 (skipn i s)).
Proof. unfold small, zlen. intros Hs H. rewrite iadd_exact by lia. apply (substring_nat s i 1). Qed.
Lemma char_eqb c : str_eqb [c] [32%N] = N.eqb c 32.
Proof. cbn [str_eqb]. apply andb_true_r. Qed.

Lemma trim_left_loop_spec this : small this -> forall rest i fuel,
  skipn i this = rest -> (i + length rest = length this)%nat -> (length rest < fuel)%nat ->
  trim_left_loop fuel this (Z.of_nat i) = Ok (Z.of_nat (i + (length rest - length (drop_spaces rest)))).
Proof.
  intro Hs. pose proof Hs as Hb. unfold small, zlen in Hb.
  induction rest as [|c t IH]; intros i fuel Hk Hl Hf; (destruct fuel as [|fuel]; [lia|]);
    cbn [trim_left_loop length] in *; unfold string_len, zlen;
    destruct (Z.ltb_spec (Z.of_nat i) (Z.of_nat (length this))); try lia.
  - now rewrite Nat.add_0_r.
  - rewrite substring_char, Hk by (auto; lia). cbn [bind firstn].
    rewrite char_eqb, drop_spaces_cons. destruct (N.eqb c 32); cbn [negb length].
    + rewrite iadd_succ by lia.
      rewrite (IH (S i) fuel); [| eapply skipn_S_cons; eauto | lia | lia].
      pose proof (drop_spaces_len t). f_equal. lia.
    + now rewrite Nat.sub_diag, Nat.add_0_r.
Qed.

Theorem trim_left_spec this : small this -> trim_left (fuel_of_string this) this = Ok (spec_trim_left this).
Proof.
  intro Hs. unfold trim_left, spec_trim_left, fuel_of_string.
  change 0 with (Z.of_nat 0). rewrite (trim_left_loop_spec this Hs this 0%nat) by (auto; lia).
  cbn [bind]. unfold string_len. rewrite substring_suffix by lia. f_equal. apply drop_spaces_skipn.
Qed.

Lemma firstn_snoc_nth {A} (l : list A) k p c : firstn (S k) l = p ++ [c] -> length p = k ->
  firstn 1 (skipn k l) = [c] /\ firstn k l = p.
Proof.
  intros H Lp. assert (E : l = (p ++ [c]) ++ skipn (S k) l) by (rewrite <- H; symmetry; apply firstn_skipn).
  rewrite E, <- app_assoc, <- Lp. split.
  - now rewrite skipn_length_app.
  - apply firstn_length_app.
Qed.

Lemma trim_right_loop_spec this : small this -> forall r fuel,
  firstn (length r) this = rev r -> (length r <= length this)%nat -> (length r < fuel)%nat ->
  trim_right_loop fuel this (Z.of_nat (length r) - 1) = Ok (Z.of_nat (length (drop_spaces r)) - 1).
Proof.
  intro Hs. pose proof Hs as Hb. unfold small, zlen in Hb.
  induction r as [|c t IH]; intros fuel Hk Hl Hf; (destruct fuel as [|fuel]; [lia|]); cbn [trim_right_loop]; [reflexivity|].
  cbn [length rev] in *. replace (Z.of_nat (S (length t)) - 1) with (Z.of_nat (length t)) by lia.
  destruct (Z.geb_spec (Z.of_nat (length t)) 0); [|lia].
  destruct (firstn_snoc_nth this (length t) (rev t) c Hk (rev_length t)) as [H1 H2].
  rewrite substring_char, H1 by (auto; lia). cbn [bind]. rewrite char_eqb, drop_spaces_cons. destruct (N.eqb c 32); cbn [negb].
  - rewrite isub_exact by lia. apply IH; [exact H2 | lia | lia].
  - f_equal. cbn [length]. lia.
Qed.

(* any fuel above the length will do: trim runs trim_right on the shorter string with the fuel of the longer *)
Lemma trim_right_fuel this fuel : small this -> (length this < fuel)%nat -> trim_right fuel this = Ok (spec_trim_right this).
Proof.
  intros Hs Hf. pose proof Hs as Hb. unfold small, zlen in Hb. unfold trim_right, spec_trim_right, string_len, zlen.
  rewrite isub_exact, <- (rev_length this) by lia.
  rewrite (trim_right_loop_spec this Hs (rev this)); rewrite ?rev_length, ?rev_involutive, ?firstn_all; auto.
  cbn [bind]. pose proof (drop_spaces_len (rev this)) as D. rewrite rev_length in D.
  rewrite iadd_exact, Z.sub_add, substring_prefix by lia. f_equal.
  rewrite <- (drop_spaces_skipn (rev this)) at 2. rewrite skipn_rev, rev_involutive, rev_length. f_equal. lia.
Qed.
Theorem trim_right_spec this : small this -> trim_right (fuel_of_string this) this = Ok (spec_trim_right this).
Proof. intro Hs. apply trim_right_fuel; [exact Hs | unfold fuel_of_string; lia]. Qed.

Theorem trim_spec this : small this -> trim (fuel_of_string this) this = Ok (spec_trim this).
Proof.
  intro Hs. unfold trim, spec_trim. rewrite trim_left_spec by exact Hs. cbn [bind].
  pose proof (drop_spaces_len this) as D. apply trim_right_fuel; [exact (small_le _ _ D Hs) | unfold fuel_of_string, spec_trim_left; lia].
Qed.

Theorem drop_spaces_meaning s : exists k, s = repeat 32%N k ++ drop_spaces s /\ (forall c t, drop_spaces s = c :: t -> c <> 32%N).
Proof.
  induction s as [|c t (k & E & H)].
  - exists 0%nat. split; [reflexivity | discriminate].
  - rewrite drop_spaces_cons. destruct (N.eqb_spec c 32) as [->|N].
    + exists (S k). split; [cbn [repeat app]; now f_equal | exact H].
    + exists 0%nat. split; [reflexivity|]. intros c' t' [= <- _]. exact N.
Qed.

Definition lines_of_parts (parts : list sstr) : list sstr :=
  map strip_cr (removelast parts) ++ (match List.last parts [] with [] => [] | _ => [List.last parts []] end).
Lemma split_char_nonempty c s : split_char c s <> [].
Proof. destruct s as [|x t]; cbn [split_char]; [discriminate|]. destruct (N.eqb x c); [discriminate|]. destruct (split_char c t); discriminate. Qed.
Lemma strip_cr_rev_eq cur : strip_cr (rev cur) = strip_cr_rev cur.
Proof. unfold strip_cr, strip_cr_rev. now rewrite rev_involutive. Qed.
Lemma lines_of_parts_cons x P : P <> [] -> lines_of_parts (x :: P) = strip_cr x :: lines_of_parts P.
Proof. intro H. unfold lines_of_parts. destruct P as [|y Q]; [congruence|]. reflexivity. Qed.

Lemma lines_go_spec s : forall cur,
  lines_go cur s = match split_char 10 s with h :: r => lines_of_parts ((rev cur ++ h) :: r) | [] => [] end.
Proof.
  induction s as [|c t IH]; intro cur; cbn [lines_go split_char].
  - rewrite app_nil_r. unfold lines_of_parts. cbn [removelast map List.last app].
    destruct cur as [|x r]; [reflexivity|]. cbn [rev]. destruct (rev r ++ [x]) eqn:E; [destruct (rev r); discriminate | reflexivity].
  - pose proof (split_char_nonempty 10 t) as Ne. rewrite !IH. destruct (N.eqb c 10).
    + rewrite app_nil_r, lines_of_parts_cons, strip_cr_rev_eq by exact Ne. now destruct (split_char 10 t).
    + destruct (split_char 10 t) as [|h r]; [congruence|]. cbn [rev]. now rewrite <- app_assoc.
Qed.

Theorem lines_spec this : lines this = spec_lines this.
Proof.
  unfold lines, string_lines. rewrite lines_go_spec. change (spec_lines this) with (lines_of_parts (split_char 10 this)).
  pose proof (split_char_nonempty 10 this). now destruct (split_char 10 this).
Qed.

Theorem split_char_join c s : spec_join [c] (split_char c s) = s.
Proof.
  induction s as [|x t IH]; [reflexivity|]. cbn [split_char]. destruct (N.eqb_spec x c) as [->|N].
  - rewrite spec_join_cons by apply split_char_nonempty. now rewrite IH.
  - destruct (split_char c t) as [|h r] eqn:E; [exfalso; eapply split_char_nonempty; eauto|].
    cbn [spec_join] in *. rewrite <- IH. reflexivity.
Qed.
Theorem split_char_free c s : Forall (fun p => ~ In c p) (split_char c s).
Proof.
  induction s as [|x t IH]; cbn [split_char]; [repeat constructor; auto|]. destruct (N.eqb_spec x c) as [->|N].
  - constructor; auto.
  - destruct (split_char c t) as [|h r]; [repeat constructor; intros [H|[]]; congruence|].
    inversion IH; subst. constructor; [|assumption]. intros [H|H]; [congruence | contradiction].
Qed.
