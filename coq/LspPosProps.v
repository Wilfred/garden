(* Proofs about the LspPos model (C29).

   LspPos.v repeats the byte arithmetic of Base/Utf.v (len_utf8, blen, split_bytes, boundary,
   count_lf ...) word for word, so its copies are convertible with the originals and the facts of
   Base/UtfProps.v hold of them as they stand: those are taken over below by `exact`. *)
From Coq Require Import NArith Bool List Lia Wf_nat.
From Garden Require Base.UtfProps.
From Garden Require Import LspPos.
Import ListNotations.
Open Scope N_scope.

Lemma len_utf8_bounds : forall c, 1 <= len_utf8 c <= 4.
Proof. exact UtfProps.len_utf8_range. Qed.

Lemma len_utf16_bounds : forall c, 1 <= len_utf16 c <= 2.
Proof. intro c; unfold len_utf16; destruct (N.ltb_spec c 65536); lia. Qed.

Lemma len_utf16_le_utf8 : forall c, len_utf16 c <= len_utf8 c.
Proof.
  intro c; unfold len_utf16, len_utf8.
  destruct (N.ltb_spec c 65536), (N.ltb_spec c 128), (N.ltb_spec c 2048); lia.
Qed.

Lemma len_utf8_LF : len_utf8 LF = 1. Proof. reflexivity. Qed.
Lemma len_utf8_CR : len_utf8 CR = 1. Proof. reflexivity. Qed.

Lemma blen_app : forall p q, blen (p ++ q) = blen p + blen q.
Proof. exact UtfProps.blen_app. Qed.

Lemma ulen_app : forall p q, ulen (p ++ q) = ulen p + ulen q.
Proof. induction p as [|c p IH]; intro q; cbn [ulen app]; [lia | rewrite IH; lia]. Qed.

Lemma count_lf_app : forall p q, count_lf (p ++ q) = count_lf p + count_lf q.
Proof. exact UtfProps.count_lf_app. Qed.

Lemma ulen_le_blen : forall s, ulen s <= blen s.
Proof.
  induction s as [|c s IH]; cbn [ulen blen]; [lia|].
  pose proof (len_utf16_le_utf8 c); lia.
Qed.

Lemma count_lf_le_blen : forall s, count_lf s <= blen s.
Proof.
  induction s as [|c s IH]; cbn [count_lf blen]; [lia|].
  pose proof (len_utf8_bounds c). destruct (c =? LF); lia.
Qed.

Lemma count_lf_pos_skip : forall c r, count_lf (c :: r) <> 0 -> (count_lf (c :: r) =? 0) = false.
Proof. intros c r H. now apply N.eqb_neq. Qed.

Lemma u32_small : forall x, x < 4294967296 -> u32 x = x.
Proof. intros x H; unfold u32; now apply N.mod_small. Qed.

Lemma split_bytes_0 : forall s, split_bytes s 0 = Some ([], s).
Proof. exact UtfProps.split_bytes_0. Qed.

Lemma split_bytes_app : forall p q, split_bytes (p ++ q) (blen p) = Some (p, q).
Proof. exact UtfProps.split_bytes_app. Qed.

Lemma split_bytes_some : forall s o p q, split_bytes s o = Some (p, q) -> s = p ++ q /\ blen p = o.
Proof. exact UtfProps.split_bytes_sound. Qed.

Lemma boundary_iff : forall s o, boundary s o <-> is_boundary s o = true.
Proof. intros s o. symmetry. exact (UtfProps.is_boundary_iff s o). Qed.

Lemma boundary_le : forall s o, boundary s o -> o <= blen s.
Proof. intros s o (p & q & -> & <-). rewrite blen_app. lia. Qed.

Lemma slice_app : forall p m q, slice (p ++ m ++ q) (blen p) (blen p + blen m) = Some m.
Proof.
  intros p m q. unfold slice.
  destruct (N.ltb_spec (blen p + blen m) (blen p)) as [E|_]; [lia|].
  rewrite split_bytes_app.
  replace (blen p + blen m - blen p) with (blen m) by lia.
  now rewrite split_bytes_app.
Qed.

Lemma slice_prefix : forall p q, slice (p ++ q) 0 (blen p) = Some p.
Proof. intros p q. apply (slice_app [] p q). Qed.

Lemma prefixes_nest : forall p q1 pb q2, p ++ q1 = pb ++ q2 -> blen p <= blen pb ->
  exists m, pb = p ++ m /\ q1 = m ++ q2.
Proof. exact UtfProps.prefixes_nest. Qed.

Lemma rfind_lf_none : forall s, rfind_lf s = None <-> count_lf s = 0.
Proof.
  induction s as [|c s IH]; cbn [rfind_lf count_lf]; [tauto|].
  destruct (rfind_lf s) as [i|].
  - split; [discriminate|]. intro H.
    assert (count_lf s = 0) as Z by (destruct (c =? LF); lia).
    apply IH in Z. discriminate.
  - destruct (c =? LF).
    + split; [discriminate | lia].
    + split; intros _; [|reflexivity]. assert (count_lf s = 0) by now apply IH. lia.
Qed.

Lemma last_line_no_lf : forall s, count_lf s = 0 -> last_line s = s.
Proof.
  destruct s as [|c s]; [reflexivity|]. cbn [count_lf last_line]. intro H.
  destruct (N.eqb_spec c LF) as [E|E]; [lia|].
  destruct (N.eqb_spec (count_lf s) 0); [reflexivity | lia].
Qed.

Lemma last_line_cons : forall c r, c <> LF ->
  last_line (c :: r) = if count_lf r =? 0 then c :: r else last_line r.
Proof. intros c r H. cbn [last_line]. apply N.eqb_neq in H. now rewrite H. Qed.

Lemma skip_lines_0 : forall r, skip_lines r 0 = Some (0, r).
Proof. destruct r; reflexivity. Qed.

Lemma skip_lines_cons : forall c r m, (if c =? LF then 1 else 0) + m <> 0 ->
  skip_lines (c :: r) ((if c =? LF then 1 else 0) + m) =
  match skip_lines r m with Some (n, r') => Some (len_utf8 c + n, r') | None => None end.
Proof.
  intros c r m H. cbn [skip_lines]. destruct (N.eqb_spec ((if c =? LF then 1 else 0) + m) 0) as [E|_]; [contradiction|].
  replace (if c =? LF then _ - 1 else _) with m by (destruct (c =? LF); lia). reflexivity.
Qed.

(* `pre` is p up to and including its last `\n` (empty when p has none): the line start that
   offset_to_lsp_position finds from the right with rfind_lf, and line_char_to_offset from the
   left with skip_lines. *)
Lemma line_decomp : forall p, exists pre,
  p = pre ++ last_line p /\ count_lf (last_line p) = 0 /\ count_lf pre = count_lf p /\
  match rfind_lf p with None => 0 | Some i => i + 1 end = blen pre /\
  forall rest, skip_lines (pre ++ rest) (count_lf pre) = Some (blen pre, rest).
Proof.
  induction p as [|c r (pre & Hp & Hl & Hc & Hr & Hs)].
  - exists []. repeat split. apply skip_lines_0.
  - cbn [last_line rfind_lf count_lf]. destruct (N.eqb_spec (count_lf r) 0) as [Z|NZ].
    + rewrite (proj2 (rfind_lf_none r) Z), Z.
      destruct (N.eqb_spec c LF) as [->|E].
      * exists [LF]. repeat split; [exact Z|]. intro rest. cbn [app count_lf]. now rewrite skip_lines_cons, skip_lines_0.
      * exists []. repeat split; [cbn [count_lf]; apply N.eqb_neq in E; now rewrite E, Z | apply skip_lines_0].
    + destruct (rfind_lf r) as [i|] eqn:Rf; [|now apply rfind_lf_none in Rf].
      exists (c :: pre). cbn [app count_lf blen]. repeat split; [congruence | exact Hl | congruence | lia |].
      intro rest. rewrite skip_lines_cons, Hs by lia. reflexivity.
Qed.

Lemma last_line_ulen_le : forall p, ulen (last_line p) <= blen p.
Proof.
  intro p. destruct (line_decomp p) as (pre & Hp & _).
  pose proof (ulen_le_blen (last_line p)).
  rewrite Hp at 2. rewrite blen_app. lia.
Qed.

Lemma walk_units_line : forall seg q u, count_lf seg = 0 ->
  walk_units (seg ++ q) u (u + ulen seg) = blen seg.
Proof.
  induction seg as [|c seg IH]; intros q u H.
  - cbn [app ulen blen]. destruct q as [|c q]; [reflexivity|].
    cbn [walk_units]. destruct (N.leb_spec (u + 0) u) as [_|E]; [reflexivity | lia].
  - cbn [app ulen blen walk_units count_lf] in *.
    pose proof (len_utf16_bounds c).
    destruct (N.eqb_spec c LF) as [E|E]; [lia|].
    destruct (N.leb_spec (u + (len_utf16 c + ulen seg)) u) as [L|_]; [lia|].
    cbn [orb]. replace (u + (len_utf16 c + ulen seg)) with ((u + len_utf16 c) + ulen seg) by lia.
    rewrite IH; [reflexivity | lia].
Qed.

Lemma line_of_app : forall p q, line_of (p ++ q) (blen p) = count_lf p.
Proof. intros p q. unfold line_of. now rewrite split_bytes_app. Qed.

Lemma offset_to_lsp_position_app : forall p q, blen (p ++ q) < 4294967296 ->
  offset_to_lsp_position (p ++ q) (blen p) = POk (count_lf p) (ulen (last_line p)).
Proof.
  intros p q Hs. unfold offset_to_lsp_position.
  rewrite blen_app in *. rewrite N.min_l by lia.
  rewrite slice_prefix.
  destruct (line_decomp p) as (pre & Hp & _ & _ & Hr & _).
  rewrite Hr. pose proof (last_line_ulen_le p) as Hu. pose proof (count_lf_le_blen p) as Hn.
  rewrite (u32_small (count_lf p)) by lia.
  remember (last_line p) as seg eqn:Eseg. clear Eseg. subst p.
  rewrite <- app_assoc, blen_app. rewrite slice_app.
  f_equal. apply u32_small. rewrite blen_app in *. lia.
Qed.

Lemma line_char_to_offset_app : forall p q,
  line_char_to_offset (p ++ q) (count_lf p) (ulen (last_line p)) = blen p.
Proof.
  intros p q. unfold line_char_to_offset.
  destruct (line_decomp p) as (pre & Hp & Hl & Hc & _ & Hs).
  remember (last_line p) as seg eqn:Eseg. clear Eseg. subst p.
  rewrite <- app_assoc, <- Hc, Hs.
  replace (ulen seg) with (0 + ulen seg) by lia.
  rewrite walk_units_line by assumption.
  rewrite blen_app. reflexivity.
Qed.

Lemma pos_roundtrip_lemma : forall s o, blen s < 4294967296 -> boundary s o ->
  exists l c, offset_to_lsp_position s o = POk l c /\ line_char_to_offset s l c = o.
Proof.
  intros s o Hs (p & q & -> & <-).
  exists (count_lf p), (ulen (last_line p)). split.
  - now apply offset_to_lsp_position_app.
  - apply line_char_to_offset_app.
Qed.

Lemma o2p_line_is_lexer_line : forall s o l c, blen s < 4294967296 -> boundary s o ->
  offset_to_lsp_position s o = POk l c -> l = line_of s o.
Proof.
  intros s o l c Hs (p & q & -> & <-) H.
  rewrite offset_to_lsp_position_app in H by assumption. rewrite line_of_app. now inversion H.
Qed.

(* Rust: slicing inside a character *)
Lemma o2p_nonboundary_panics : forall s o, o <= blen s -> ~ boundary s o ->
  offset_to_lsp_position s o = PPanic.
Proof.
  intros s o L NB. unfold offset_to_lsp_position. rewrite N.min_l by assumption.
  unfold slice.
  destruct (N.ltb_spec o 0) as [E|_]; [lia|].
  rewrite split_bytes_0. rewrite N.sub_0_r.
  destruct (split_bytes s o) as [[p q]|] eqn:H; [|reflexivity].
  exfalso. apply NB. apply split_bytes_some in H. now exists p, q.
Qed.

Lemma o2p_clamps : forall s o, blen s <= o ->
  offset_to_lsp_position s o = offset_to_lsp_position s (blen s).
Proof.
  intros s o L. unfold offset_to_lsp_position.
  rewrite N.min_r by assumption. now rewrite N.min_id.
Qed.

Lemma ends_with_lf_cons : forall c r, ends_with_lf (c :: r) =
  match r with [] => c =? LF | _ => ends_with_lf r end.
Proof.
  intros c r. unfold ends_with_lf. cbn [rev].
  destruct r as [|d r]; [reflexivity|].
  destruct (rev (d :: r)) as [|x xs] eqn:E; [|reflexivity].
  apply (f_equal (@length N)) in E. rewrite rev_length in E. discriminate.
Qed.

Lemma last_line_LF_cons : forall r, last_line (LF :: r) = last_line r.
Proof.
  intro r. cbn [last_line]. change (LF =? LF) with true.
  destruct (N.eqb_spec (count_lf r) 0) as [Z|_]; [|reflexivity].
  symmetry. now apply last_line_no_lf.
Qed.

Lemma strip_no_lf : forall l, count_lf l = 0 -> strip_line_ending l = l.
Proof.
  intros l H. unfold strip_line_ending.
  destruct (rev l) as [|c1 r1] eqn:E; [reflexivity|].
  destruct (N.eqb_spec c1 LF) as [E1|_]; [|reflexivity].
  exfalso. apply (f_equal (@rev N)) in E. rewrite rev_involutive in E. subst l c1.
  cbn [rev] in H. rewrite count_lf_app in H. cbn in H. lia.
Qed.

Lemma split_inclusive_lf_pieces : forall s, exists init,
  N.of_nat (length init) = count_lf s /\
  split_inclusive_lf s = init ++ match last_line s with [] => [] | _ => [last_line s] end.
Proof.
  induction s as [|c r (init & Hl & Hi)]; [now exists []|].
  cbn [split_inclusive_lf count_lf]. destruct (N.eqb_spec c LF) as [->|E]; cbv iota.
  - exists ([LF] :: init). rewrite last_line_LF_cons, Hi. split; [cbn [length]; lia | reflexivity].
  - rewrite (last_line_cons c r E), Hi. destruct (N.eqb_spec (count_lf r) 0) as [Z|NZ].
    + exists []. split; [cbn [length]; lia|]. rewrite (last_line_no_lf r Z).
      destruct init; [|rewrite Z in Hl; discriminate]. now destruct r.
    + destruct init as [|i0 init]; [cbn [length] in Hl; lia|].
      exists ((c :: i0) :: init). split; [cbn [length] in *; lia | reflexivity].
Qed.

Lemma ends_with_lf_last_line : forall s, s <> [] ->
  ends_with_lf s = match last_line s with [] => true | _ => false end.
Proof.
  induction s as [|c r IH]; intros NE; [contradiction|]. rewrite ends_with_lf_cons.
  destruct r as [|d r']; [cbn; now destruct (c =? LF)|].
  rewrite IH by discriminate. remember (d :: r') as r eqn:Er.
  destruct (N.eqb_spec c LF) as [->|E]; [now rewrite last_line_LF_cons|].
  rewrite (last_line_cons c r E). destruct (N.eqb_spec (count_lf r) 0) as [Z|_]; [|reflexivity].
  rewrite (last_line_no_lf r Z). now subst r.
Qed.

Lemma whole_document_end_eq : forall s,
  whole_document_end s = (u32 (count_lf s), u32 (ulen (last_line s))).
Proof.
  intro s. unfold whole_document_end, rust_lines.
  destruct s as [|c r] eqn:Es; [reflexivity|]. cbv iota. rewrite <- Es.
  rewrite ends_with_lf_last_line by (subst s; discriminate).
  destruct (split_inclusive_lf_pieces s) as (init & Hl & ->). rewrite map_length, app_length, map_app, rev_app_distr.
  destruct (line_decomp s) as (_ & _ & Hz & _).
  destruct (last_line s) as [|x l]; cbn [length map rev app].
  - f_equal; f_equal; lia.
  - rewrite (strip_no_lf _ Hz). f_equal; f_equal; lia.
Qed.

Lemma whole_document_end_small : forall s, blen s < 4294967296 ->
  whole_document_end s = (count_lf s, ulen (last_line s)).
Proof.
  intros s H. rewrite whole_document_end_eq.
  pose proof (count_lf_le_blen s). pose proof (last_line_ulen_le s).
  rewrite !u32_small by lia. reflexivity.
Qed.

Lemma no_lone_cr_iff : forall s, no_lone_cr s <-> no_lone_cr_b s = true.
Proof.
  intro s. split.
  - induction 1 as [|r H IH|c r Hc H IH].
    + reflexivity.
    + cbn [no_lone_cr_b]. change (CR =? CR) with true. change (LF =? LF) with true. exact IH.
    + cbn [no_lone_cr_b]. destruct (N.eqb_spec c CR) as [E|_]; [contradiction | exact IH].
  - remember (length s) as n eqn:Hn. revert s Hn.
    induction n as [n IHn] using lt_wf_ind. intros s Hn H.
    destruct s as [|c r]; [constructor|].
    cbn [no_lone_cr_b] in H. destruct (N.eqb_spec c CR) as [E|E].
    + subst c. destruct r as [|c2 r2]; [discriminate|].
      apply andb_true_iff in H. destruct H as [H1 H2].
      apply N.eqb_eq in H1. subst c2. constructor.
      apply (IHn (length r2)); [subst n; cbn; lia | reflexivity | exact H2].
    + constructor; [exact E|].
      apply (IHn (length r)); [subst n; cbn; lia | reflexivity | exact H].
Qed.

Lemma spec_offset_start : forall s, spec_offset s 0 0 = Some 0.
Proof.
  destruct s as [|c r]; [reflexivity|]. cbn [spec_offset].
  change (0 =? 0) with true. cbn iota. destruct ((c =? LF) || (c =? CR)); reflexivity.
Qed.

(* On a prefix without a lone CR, the
   specification's reading of garden's position is the prefix's byte length. *)
Lemma spec_offset_prefix : forall p, no_lone_cr p -> forall q,
  spec_offset (p ++ q) (count_lf p) (ulen (last_line p)) = Some (blen p).
Proof.
  induction 1 as [|r H IH|c r Hc H IH]; intro q.
  - cbn [app count_lf last_line ulen blen]. apply spec_offset_start.
  - replace (last_line (CR :: LF :: r)) with (last_line r).
    2:{ rewrite last_line_cons by discriminate. rewrite last_line_LF_cons.
        cbn [count_lf]. change (LF =? LF) with true. cbv iota.
        destruct (N.eqb_spec (1 + count_lf r) 0) as [E|_]; [lia | reflexivity]. }
    cbn [app count_lf blen spec_offset].
    change (CR =? LF) with false. change (LF =? LF) with true. change (CR =? CR) with true. cbn iota.
    destruct (N.eqb_spec (0 + (1 + count_lf r)) 0) as [E|_]; [lia|].
    replace (0 + (1 + count_lf r) - 1) with (count_lf r) by lia.
    rewrite IH. cbn [option_map]. rewrite len_utf8_CR, len_utf8_LF. f_equal. lia.
  - destruct (N.eqb_spec c LF) as [E|E].
    + subst c. rewrite last_line_LF_cons.
      cbn [app count_lf blen spec_offset]. change (LF =? LF) with true. cbn iota.
      destruct (N.eqb_spec (1 + count_lf r) 0) as [E|_]; [lia|].
      replace (1 + count_lf r - 1) with (count_lf r) by lia.
      rewrite IH. cbn [option_map]. reflexivity.
    + cbn [app count_lf blen last_line spec_offset].
      destruct (N.eqb_spec c LF) as [E'|_]; [contradiction|].
      destruct (N.eqb_spec c CR) as [E'|_]; [contradiction|].
      cbn [orb]. replace (0 + count_lf r) with (count_lf r) by lia.
      destruct (N.eqb_spec (count_lf r) 0) as [Z|NZ].
      * (* the position is on this line: walk over c *)
        cbn [ulen]. pose proof (len_utf16_bounds c) as B.
        destruct (N.eqb_spec (len_utf16 c + ulen r) 0) as [E0|_]; [lia|].
        destruct (N.ltb_spec (len_utf16 c + ulen r) (len_utf16 c)) as [E1|_]; [lia|].
        replace (len_utf16 c + ulen r - len_utf16 c) with (ulen r) by lia.
        specialize (IH q). rewrite Z, (last_line_no_lf r Z) in IH. rewrite IH. reflexivity.
      * rewrite IH. reflexivity.
Qed.

Lemma splice_app : forall p m q t, splice (p ++ m ++ q) (blen p) (blen p + blen m) t = Some (p ++ t ++ q).
Proof.
  intros p m q t. unfold splice.
  destruct (N.ltb_spec (blen p + blen m) (blen p)) as [E|_]; [lia|].
  rewrite split_bytes_app.
  rewrite <- blen_app, app_assoc, split_bytes_app. reflexivity.
Qed.

Lemma whole_range_covers_lemma : forall s t, blen s < 4294967296 -> no_lone_cr s ->
  apply_lsp_edit s (whole_document_range s) t = Some t.
Proof.
  intros s t Hs Hn. unfold whole_document_range, apply_lsp_edit.
  rewrite whole_document_end_small by assumption.
  rewrite spec_offset_start.
  pose proof (spec_offset_prefix s Hn []) as H. rewrite app_nil_r in H. rewrite H.
  pose proof (splice_app [] s [] t) as S. cbn [app blen] in S.
  rewrite app_nil_r in S. rewrite N.add_0_l in S. rewrite S. now rewrite app_nil_r.
Qed.

Lemma range_ignores_line_fields : forall s g,
  garden_pos_to_lsp_range s g = range_of s (start_offset g) (end_offset g).
Proof. reflexivity. Qed.

Lemma range_of_app : forall p m q, blen (p ++ m ++ q) < 4294967296 ->
  range_of (p ++ m ++ q) (blen p) (blen p + blen m) =
  Some ((count_lf p, ulen (last_line p)), (count_lf (p ++ m), ulen (last_line (p ++ m)))).
Proof.
  intros p m q Hs. unfold range_of, garden_pos_to_lsp_range.
  cbn [start_offset end_offset].
  rewrite offset_to_lsp_position_app by assumption.
  rewrite <- blen_app. rewrite app_assoc in *.
  rewrite offset_to_lsp_position_app by assumption. reflexivity.
Qed.

Lemma range_edit_is_splice_app : forall p m q t, blen (p ++ m ++ q) < 4294967296 ->
  no_lone_cr p -> no_lone_cr (p ++ m) ->
  apply_lsp_edit_opt (p ++ m ++ q) (range_of (p ++ m ++ q) (blen p) (blen p + blen m)) t
  = Some (p ++ t ++ q).
Proof.
  intros p m q t Hs Hp Hpm. rewrite range_of_app by assumption.
  unfold apply_lsp_edit_opt, apply_lsp_edit.
  rewrite (spec_offset_prefix p Hp (m ++ q)).
  pose proof (spec_offset_prefix (p ++ m) Hpm q) as H. rewrite <- app_assoc in H. rewrite H.
  rewrite blen_app. apply splice_app.
Qed.

Definition between_cr_lf (s : doc) (o : N) : Prop :=
  exists p q, s = p ++ CR :: LF :: q /\ o = blen p + 1.

Definition between_cr_lf_b (s : doc) (o : N) : bool :=
  if o =? 0 then false else
  match split_bytes s (o - 1) with
  | Some (_, c1 :: c2 :: _) => (c1 =? CR) && (c2 =? LF)
  | _ => false
  end.

Lemma between_cr_lf_iff : forall s o, between_cr_lf s o <-> between_cr_lf_b s o = true.
Proof.
  intros s o. unfold between_cr_lf, between_cr_lf_b. split.
  - intros (p & q & -> & ->).
    destruct (N.eqb_spec (blen p + 1) 0) as [E|_]; [lia|].
    replace (blen p + 1 - 1) with (blen p) by lia.
    rewrite split_bytes_app. reflexivity.
  - destruct (N.eqb_spec o 0) as [E|E]; [discriminate|].
    destruct (split_bytes s (o - 1)) as [[p [|c1 [|c2 q]]]|] eqn:H; try discriminate.
    intro B. apply andb_true_iff in B. destruct B as [B1 B2].
    apply N.eqb_eq in B1. apply N.eqb_eq in B2. subst c1 c2.
    apply split_bytes_some in H. destruct H as [-> Hb].
    exists p, q. split; [reflexivity | lia].
Qed.

Lemma between_cr_lf_cons : forall c s o, between_cr_lf s o -> between_cr_lf (c :: s) (len_utf8 c + o).
Proof. intros c s o (p & q & -> & ->). exists (c :: p), q. split; [reflexivity | cbn [blen]; lia]. Qed.

Lemma nlc_prefix : forall s, no_lone_cr s -> forall p q, s = p ++ q ->
  ~ between_cr_lf s (blen p) -> no_lone_cr p.
Proof.
  induction 1 as [|r H IH|c r Hc H IH]; intros p q E NB.
  - destruct p; [constructor | discriminate].
  - destruct p as [|c1 [|c2 p]]; [constructor| |]; cbn [app] in E.
    + (* p = [CR], q = LF :: r : between CR and LF *)
      injection E as <- <-. destruct NB. now exists [], r.
    + injection E as <- <- E. constructor. apply (IH p q E). intro B. apply NB.
      exact (between_cr_lf_cons CR _ _ (between_cr_lf_cons LF _ _ B)).
  - destruct p as [|c1 p]; [constructor|]. injection E as <- E. constructor; [exact Hc|].
    apply (IH p q E). intro B. apply NB. exact (between_cr_lf_cons c _ _ B).
Qed.

Lemma range_edit_is_splice_lemma : forall s a b t, blen s < 4294967296 -> no_lone_cr s ->
  boundary s a -> boundary s b -> a <= b ->
  ~ between_cr_lf s a -> ~ between_cr_lf s b ->
  apply_lsp_edit_opt s (range_of s a b) t = splice s a b t /\ splice s a b t <> None.
Proof.
  intros s a b t Hs Hn (p & q1 & E1 & Ha) (pb & q2 & E2 & Hb) L Na Nb.
  subst a b. rewrite E1 in E2.
  destruct (prefixes_nest p q1 pb q2 E2 L) as (m & -> & ->).
  assert (no_lone_cr p) as Hp by (apply (nlc_prefix s Hn p (m ++ q2) E1 Na)).
  assert (no_lone_cr (p ++ m)) as Hpm.
  { apply (nlc_prefix s Hn (p ++ m) q2); [now rewrite <- app_assoc | exact Nb]. }
  subst s. rewrite blen_app, splice_app, range_edit_is_splice_app by assumption.
  split; [reflexivity | discriminate].
Qed.

Definition ch_a : N := 97.
Definition ch_eacute : N := 233.       (* 2 bytes, 1 unit  *)
Definition ch_euro : N := 8364.        (* 3 bytes, 1 unit  *)
Definition ch_grin : N := 128512.      (* 4 bytes, 2 units *)

(* "a\r": garden says the document ends at (0, 2); for the specification line 0
   is "a" (length 1), so the edit stops before the CR and the CR survives. *)
Lemma whole_range_lone_cr_refuted_lemma :
  apply_lsp_edit [ch_a; CR] (whole_document_range [ch_a; CR]) [] = Some [CR].
Proof. vm_compute. reflexivity. Qed.

(* "a\rb\n": garden says the document ends at (1, 0); for the specification that is
   the start of "b". *)
Lemma whole_range_lone_cr_refuted2_lemma :
  apply_lsp_edit [ch_a; CR; ch_a; LF] (whole_document_range [ch_a; CR; ch_a; LF]) [] = Some [ch_a; LF].
Proof. vm_compute. reflexivity. Qed.

(* "\ra", the span of the `a` (bytes 1..2): garden sends (0,1)-(0,2); for the
   specification line 0 is empty, the edit lands before the CR. *)
Lemma range_edit_lone_cr_refuted_lemma :
  apply_lsp_edit_opt [CR; ch_a] (range_of [CR; ch_a] 1 2) [ch_euro] = Some [ch_euro; CR; ch_a]
  /\ splice [CR; ch_a] 1 2 [ch_euro] = Some [CR; ch_euro].
Proof. split; vm_compute; reflexivity. Qed.

(* "a\r\na", the empty span at byte 2 (between CR and LF). *)
Lemma range_edit_mid_crlf_refuted_lemma :
  apply_lsp_edit_opt [ch_a; CR; LF; ch_a] (range_of [ch_a; CR; LF; ch_a] 2 2) [ch_euro]
    = Some [ch_a; ch_euro; CR; LF; ch_a]
  /\ splice [ch_a; CR; LF; ch_a] 2 2 [ch_euro] = Some [ch_a; CR; ch_euro; LF; ch_a].
Proof. split; vm_compute; reflexivity. Qed.

(* What was wrong before the fix: garden positions do not always carry the line
   of their END offset.  The quick fix "Remove unused value" on
   "{\n1\nb}" spans the line "1\n" (bytes 2..4) but keeps the literal's
   end_line_number 1; with the caller's line numbers the range was (1,0)-(1,0),
   an empty edit, instead of (1,0)-(2,0). *)
Definition stale_doc : doc := [123; LF; 49; LF; 98; 125].
Definition stale_pos : gpos := {| start_offset := 2; end_offset := 4; line_number := 1; end_line_number := 1 |}.

Lemma stale_end_line_refuted_lemma :
  apply_lsp_edit_opt stale_doc (garden_pos_to_lsp_range_v0 stale_doc stale_pos) [] = Some stale_doc
  /\ splice stale_doc 2 4 [] = Some [123; LF; 98; 125]
  /\ apply_lsp_edit_opt stale_doc (garden_pos_to_lsp_range stale_doc stale_pos) [] = Some [123; LF; 98; 125].
Proof. repeat split; vm_compute; reflexivity. Qed.

(* 2-, 3- and 4-byte characters, CRLF and a bare CR *)
Definition sample : doc := [ch_a; ch_eacute; CR; LF; ch_euro; ch_grin; ch_a; LF; ch_grin; CR; ch_eacute].

Example sample_len : blen sample = 21 /\ ulen sample = 13. Proof. split; reflexivity. Qed.

(* offset 12 = after "€😀" on line 1: (1, 3); back: 12.  The bare CR later in the
   document does not matter for the round trip. *)
Example roundtrip_sample :
  boundary sample 12 /\ offset_to_lsp_position sample 12 = POk 1 3
  /\ line_char_to_offset sample 1 3 = 12.
Proof. split; [apply boundary_iff; reflexivity | split; reflexivity]. Qed.

Example roundtrip_sample_after_cr :
  boundary sample 21 /\ offset_to_lsp_position sample 21 = POk 2 4
  /\ line_char_to_offset sample 2 4 = 21.
Proof. split; [apply boundary_iff; reflexivity | split; reflexivity]. Qed.

Example nonboundary_sample : ~ boundary sample 2 /\ offset_to_lsp_position sample 2 = PPanic.
Proof.
  split; [|reflexivity]. intro H. apply boundary_iff in H. discriminate.
Qed.

Definition sample_crlf : doc := [ch_a; ch_eacute; CR; LF; ch_euro; ch_grin; ch_a; LF; ch_grin].

Example sample_crlf_ok : no_lone_cr sample_crlf /\ blen sample_crlf < 4294967296.
Proof. split; [apply no_lone_cr_iff; reflexivity | reflexivity]. Qed.

Example whole_range_sample :
  whole_document_range sample_crlf = ((0, 0), (2, 2)) /\
  apply_lsp_edit sample_crlf (whole_document_range sample_crlf) [ch_euro] = Some [ch_euro].
Proof. split; reflexivity. Qed.

(* the span of "😀a" on line 1 (bytes 8..13) *)
Example range_edit_sample :
  boundary sample_crlf 8 /\ boundary sample_crlf 13 /\
  ~ between_cr_lf sample_crlf 8 /\ ~ between_cr_lf sample_crlf 13 /\
  range_of sample_crlf 8 13 = Some ((1, 1), (1, 4)) /\
  splice sample_crlf 8 13 [ch_eacute] = Some [ch_a; ch_eacute; CR; LF; ch_euro; ch_eacute; LF; ch_grin].
Proof.
  repeat split; try (apply boundary_iff; reflexivity);
    try (intro H; apply between_cr_lf_iff in H; discriminate).
Qed.
