(* C32 -- Prelude string and list functions match their specification.
   Statements; the proofs are in PreludeProps.v (here its lemmas are applied, at most
   combined in a line or two).  Model: Prelude.v (a
   transliteration of src/__prelude.gdn and of the Rust built-in arms it calls);
   specification: PreludeSpec.v.  `small l` = the string / list has fewer than
   2^62 items (it fits in memory), which makes the wrapping Int arithmetic of the
   loops exact.  Every theorem of the form `f fuel args = Ok (spec args)` says in
   particular that the Garden loop terminates within `fuel` iterations. *)
From Coq Require Import ZArith NArith List Bool String Sorting.Sorted Sorting.Permutation.
From Garden Require Import Base.Int64 Prelude PreludeSpec PreludeProps gen.PreludeSrc.
Import ListNotations.
Open Scope Z_scope.

(* ---- the model was written from exactly these sources (regenerated from the tree on every run) ---- *)
Example starts_with_src_pinned : PreludeSrc.starts_with_hash = "37ee8630518048c4"%string.
Proof. reflexivity. Qed.
Print Assumptions starts_with_src_pinned.

Example ends_with_src_pinned : PreludeSrc.ends_with_hash = "7c714018e84dfd88"%string.
Proof. reflexivity. Qed.
Print Assumptions ends_with_src_pinned.

Example replace_src_pinned : PreludeSrc.replace_hash = "cb4a16866bb6d9ee"%string.
Proof. reflexivity. Qed.
Print Assumptions replace_src_pinned.

Example split_once_src_pinned : PreludeSrc.split_once_hash = "a3ca513518fe7897"%string.
Proof. reflexivity. Qed.
Print Assumptions split_once_src_pinned.

Example join_src_pinned : PreludeSrc.join_hash = "2d7fbd4d55841889"%string.
Proof. reflexivity. Qed.
Print Assumptions join_src_pinned.

Example contains_src_pinned : PreludeSrc.contains_hash = "f43bedaa8cc52af0"%string.
Proof. reflexivity. Qed.
Print Assumptions contains_src_pinned.

Example trim_left_src_pinned : PreludeSrc.trim_left_hash = "77b6af7785fc71d7"%string.
Proof. reflexivity. Qed.
Print Assumptions trim_left_src_pinned.

Example trim_right_src_pinned : PreludeSrc.trim_right_hash = "78915444759a3996"%string.
Proof. reflexivity. Qed.
Print Assumptions trim_right_src_pinned.

Example trim_src_pinned : PreludeSrc.trim_hash = "2af1b28ee91d7e69"%string.
Proof. reflexivity. Qed.
Print Assumptions trim_src_pinned.

Example strip_suffix_src_pinned : PreludeSrc.strip_suffix_hash = "ef3959a2004fe632"%string.
Proof. reflexivity. Qed.
Print Assumptions strip_suffix_src_pinned.

Example strip_prefix_src_pinned : PreludeSrc.strip_prefix_hash = "9fc8f7393b88bf24"%string.
Proof. reflexivity. Qed.
Print Assumptions strip_prefix_src_pinned.

Example split_src_pinned : PreludeSrc.split_hash = "5e9dab8f70cefb10"%string.
Proof. reflexivity. Qed.
Print Assumptions split_src_pinned.

Example chars_src_pinned : PreludeSrc.chars_hash = "c355bcaf0ccefac9"%string.
Proof. reflexivity. Qed.
Print Assumptions chars_src_pinned.

Example len_src_pinned : PreludeSrc.len_hash = "dd424e97cd58c48c"%string.
Proof. reflexivity. Qed.
Print Assumptions len_src_pinned.

Example lines_src_pinned : PreludeSrc.lines_hash = "f164c6c6e5173240"%string.
Proof. reflexivity. Qed.
Print Assumptions lines_src_pinned.

Example substring_src_pinned : PreludeSrc.substring_hash = "6c8e91df60192b38"%string.
Proof. reflexivity. Qed.
Print Assumptions substring_src_pinned.

Example index_of_src_pinned : PreludeSrc.index_of_hash = "0229c805d737b55c"%string.
Proof. reflexivity. Qed.
Print Assumptions index_of_src_pinned.

Example range_src_pinned : PreludeSrc.range_hash = "b20e9861eb3d51a8"%string.
Proof. reflexivity. Qed.
Print Assumptions range_src_pinned.

Example append_src_pinned : PreludeSrc.append_hash = "c3ce76588f842d90"%string.
Proof. reflexivity. Qed.
Print Assumptions append_src_pinned.

Example concat_src_pinned : PreludeSrc.concat_hash = "82c988a655287999"%string.
Proof. reflexivity. Qed.
Print Assumptions concat_src_pinned.

Example lcontains_src_pinned : PreludeSrc.lcontains_hash = "88b65f7ec82b66be"%string.
Proof. reflexivity. Qed.
Print Assumptions lcontains_src_pinned.

Example get_src_pinned : PreludeSrc.get_hash = "ed2074f48f30d2cc"%string.
Proof. reflexivity. Qed.
Print Assumptions get_src_pinned.

Example llen_src_pinned : PreludeSrc.llen_hash = "51ca8a3a7429ee31"%string.
Proof. reflexivity. Qed.
Print Assumptions llen_src_pinned.

Example first_src_pinned : PreludeSrc.first_hash = "28c4f488cc53060e"%string.
Proof. reflexivity. Qed.
Print Assumptions first_src_pinned.

Example last_src_pinned : PreludeSrc.last_hash = "5eb1c7487776a814"%string.
Proof. reflexivity. Qed.
Print Assumptions last_src_pinned.

Example filter_src_pinned : PreludeSrc.filter_hash = "bc0690856dd4505a"%string.
Proof. reflexivity. Qed.
Print Assumptions filter_src_pinned.

Example map_src_pinned : PreludeSrc.map_hash = "6d5f301f1aa7068f"%string.
Proof. reflexivity. Qed.
Print Assumptions map_src_pinned.

Example lindex_of_src_pinned : PreludeSrc.lindex_of_hash = "c254570323152aab"%string.
Proof. reflexivity. Qed.
Print Assumptions lindex_of_src_pinned.

Example slice_src_pinned : PreludeSrc.slice_hash = "faf4827b97765a68"%string.
Proof. reflexivity. Qed.
Print Assumptions slice_src_pinned.

Example enumerate_src_pinned : PreludeSrc.enumerate_hash = "8e6b1121ba41fa24"%string.
Proof. reflexivity. Qed.
Print Assumptions enumerate_src_pinned.

Example sort_nums_src_pinned : PreludeSrc.sort_nums_hash = "cbcbdedacff5735d"%string.
Proof. reflexivity. Qed.
Print Assumptions sort_nums_src_pinned.

Example max_src_pinned : PreludeSrc.max_hash = "ed7dbccbedbc4968"%string.
Proof. reflexivity. Qed.
Print Assumptions max_src_pinned.

Example min_src_pinned : PreludeSrc.min_hash = "cb76c0eecda1a0d7"%string.
Proof. reflexivity. Qed.
Print Assumptions min_src_pinned.

Example rust_StringLen_src_pinned : PreludeSrc.rust_StringLen_hash = "b60dd7e8114c359d"%string.
Proof. reflexivity. Qed.
Print Assumptions rust_StringLen_src_pinned.

Example rust_StringSubstring_src_pinned : PreludeSrc.rust_StringSubstring_hash = "b794605d6d020435"%string.
Proof. reflexivity. Qed.
Print Assumptions rust_StringSubstring_src_pinned.

Example rust_StringStartsWith_src_pinned : PreludeSrc.rust_StringStartsWith_hash = "9d9f5c9f1a67ce5b"%string.
Proof. reflexivity. Qed.
Print Assumptions rust_StringStartsWith_src_pinned.

Example rust_StringEndsWith_src_pinned : PreludeSrc.rust_StringEndsWith_hash = "f308467b15cdb158"%string.
Proof. reflexivity. Qed.
Print Assumptions rust_StringEndsWith_src_pinned.

Example rust_StringIndexOf_src_pinned : PreludeSrc.rust_StringIndexOf_hash = "26040f6b747c5d82"%string.
Proof. reflexivity. Qed.
Print Assumptions rust_StringIndexOf_src_pinned.

Example rust_StringJoin_src_pinned : PreludeSrc.rust_StringJoin_hash = "ac3e3a472ed659c1"%string.
Proof. reflexivity. Qed.
Print Assumptions rust_StringJoin_src_pinned.

Example rust_StringChars_src_pinned : PreludeSrc.rust_StringChars_hash = "686bcfcc6274b1fb"%string.
Proof. reflexivity. Qed.
Print Assumptions rust_StringChars_src_pinned.

Example rust_StringLines_src_pinned : PreludeSrc.rust_StringLines_hash = "016cb58a2f8da8e1"%string.
Proof. reflexivity. Qed.
Print Assumptions rust_StringLines_src_pinned.

Example rust_ListAppend_src_pinned : PreludeSrc.rust_ListAppend_hash = "2fff703e7bcf5818"%string.
Proof. reflexivity. Qed.
Print Assumptions rust_ListAppend_src_pinned.

Example rust_ListLen_src_pinned : PreludeSrc.rust_ListLen_hash = "67692ae7b8857a81"%string.
Proof. reflexivity. Qed.
Print Assumptions rust_ListLen_src_pinned.

Example rust_ListGet_src_pinned : PreludeSrc.rust_ListGet_hash = "06def9b08871c0ff"%string.
Proof. reflexivity. Qed.
Print Assumptions rust_ListGet_src_pinned.

Example rust_ListContains_src_pinned : PreludeSrc.rust_ListContains_hash = "e33216d059d46d95"%string.
Proof. reflexivity. Qed.
Print Assumptions rust_ListContains_src_pinned.

Example rust_ListSlice_src_pinned : PreludeSrc.rust_ListSlice_hash = "7735bc2ae92be3b3"%string.
Proof. reflexivity. Qed.
Print Assumptions rust_ListSlice_src_pinned.

(* ---- strings ----------------------------------------------------------------------------------- *)
(* starts_with: `s` is a prefix of `this` *)
Theorem C32_starts_with : forall this s, starts_with this s = spec_starts_with this s /\ (starts_with this s = true <-> is_prefix s this).
Proof. intros; split; [apply starts_with_spec | apply starts_with_meaning]. Qed.
Print Assumptions C32_starts_with.

Theorem C32_ends_with : forall this s, ends_with this s = spec_ends_with this s /\ (ends_with this s = true <-> is_suffix s this).
Proof. intros; split; [apply ends_with_spec | apply ends_with_meaning]. Qed.
Print Assumptions C32_ends_with.

(* index_of: the character offset of the first occurrence (Some 0 for the empty needle, also in the empty string) *)
Theorem C32_index_of : forall this needle, index_of this needle = spec_index_of this needle.
Proof. exact index_of_spec. Qed.
Print Assumptions C32_index_of.

Theorem C32_index_of_first_occurrence : forall this needle i, index_of this needle = Some (Z.of_nat i) <-> first_occurrence needle this i.
Proof. exact index_of_meaning. Qed.
Print Assumptions C32_index_of_first_occurrence.

Theorem C32_index_of_none : forall this needle, index_of this needle = None <-> ~ occurs needle this.
Proof. exact index_of_none_meaning. Qed.
Print Assumptions C32_index_of_none.

(* substring: raises unless 0 <= from <= to, otherwise the characters at offsets from <= k < to (clamped at the end) *)
Theorem C32_substring : forall this from to, substring this from to = match spec_substring this from to with Some r => Ok r | None => Exn end.
Proof. exact substring_spec. Qed.
Print Assumptions C32_substring.

Theorem C32_split_once : forall this needle, small this -> split_once this needle = Ok (spec_split_once this needle).
Proof. exact split_once_spec. Qed.
Print Assumptions C32_split_once.

Theorem C32_strip_prefix : forall this prefix, small this -> strip_prefix this prefix = Ok (spec_strip_prefix this prefix).
Proof. exact strip_prefix_spec. Qed.
Print Assumptions C32_strip_prefix.

Theorem C32_strip_suffix : forall this suffix, small this -> strip_suffix this suffix = Ok (spec_strip_suffix this suffix).
Proof. exact strip_suffix_spec. Qed.
Print Assumptions C32_strip_suffix.

(* contains terminates (fuel = length + 2) and decides occurrence *)
Theorem C32_contains : forall this substring, small this -> contains (fuel_of_string this) this substring = Ok (spec_contains this substring).
Proof. exact contains_spec. Qed.
Print Assumptions C32_contains.

Theorem C32_contains_meaning : forall s n, spec_contains s n = true <-> occurs n s.
Proof. exact spec_contains_meaning. Qed.
Print Assumptions C32_contains_meaning.

(* split terminates for EVERY needle (fuel = length + 2), the empty one included *)
Theorem C32_split : forall this needle, small this -> split (fuel_of_string this) this needle = Ok (spec_split this needle).
Proof. exact split_spec. Qed.
Print Assumptions C32_split.

(* for a non-empty needle the parts are THE leftmost decomposition: joining them with the needle gives the string back and no part contains the needle *)
Theorem C32_split_meaning : forall this needle parts, small this -> this <> [] -> needle <> [] ->
  split (fuel_of_string this) this needle = Ok parts ->
  Split needle this parts /\ spec_join needle parts = this /\ Forall (fun p => ~ occurs needle p) parts.
Proof. exact split_meaning. Qed.
Print Assumptions C32_split_meaning.

Theorem C32_split_unique : forall n s p1 p2, Split n s p1 -> Split n s p2 -> p1 = p2.
Proof. intros n s p1 p2 H1 H2; exact (Split_functional n s p1 H1 p2 H2). Qed.
Print Assumptions C32_split_unique.

(* the empty needle splits between all characters; joining with the empty needle still gives the string back *)
Theorem C32_split_empty_needle : forall this, spec_split this [] = spec_chars this /\ spec_join [] (chars this) = this.
Proof. intro this; split; [destruct this; reflexivity | apply chars_join]. Qed.
Print Assumptions C32_split_empty_needle.

(* replace terminates for EVERY `before`, the empty one included *)
Theorem C32_replace : forall this before after, small this -> replace (fuel_of_string this) this before after = Ok (spec_replace this before after).
Proof. exact replace_spec. Qed.
Print Assumptions C32_replace.

Theorem C32_replace_meaning : forall this before after, before <> [] ->
  exists parts, Split before this parts /\ spec_replace this before after = spec_join after parts.
Proof. exact replace_meaning. Qed.
Print Assumptions C32_replace_meaning.

Theorem C32_join : forall this items, join this items = spec_join this items.
Proof. exact join_spec. Qed.
Print Assumptions C32_join.

Theorem C32_chars : forall this, chars this = spec_chars this.
Proof. exact chars_spec. Qed.
Print Assumptions C32_chars.

Theorem C32_len : forall this, len this = spec_len this.
Proof. exact len_spec. Qed.
Print Assumptions C32_len.

(* trim_left / trim_right / trim terminate (fuel = length + 2) and remove the U+0020 characters at the ends *)
Theorem C32_trim_left : forall this, small this -> trim_left (fuel_of_string this) this = Ok (spec_trim_left this).
Proof. exact trim_left_spec. Qed.
Print Assumptions C32_trim_left.

Theorem C32_trim_right : forall this, small this -> trim_right (fuel_of_string this) this = Ok (spec_trim_right this).
Proof. exact trim_right_spec. Qed.
Print Assumptions C32_trim_right.

Theorem C32_trim : forall this, small this -> trim (fuel_of_string this) this = Ok (spec_trim this).
Proof. exact trim_spec. Qed.
Print Assumptions C32_trim.

(* drop_spaces removes exactly the maximal run of U+0020 *)
Theorem C32_trim_meaning : forall s, exists k, s = (repeat 32%N k ++ drop_spaces s)%list /\ (forall c t, drop_spaces s = c :: t -> c <> 32%N).
Proof. exact drop_spaces_meaning. Qed.
Print Assumptions C32_trim_meaning.

(* lines: the pieces between newline characters, one CR before a newline removed, no final empty line *)
Theorem C32_lines : forall this, lines this = spec_lines this.
Proof. exact lines_spec. Qed.
Print Assumptions C32_lines.

Theorem C32_lines_pieces : forall c s, spec_join [c] (split_char c s) = s /\ Forall (fun p => ~ In c p) (split_char c s).
Proof. intros; split; [apply split_char_join | apply split_char_free]. Qed.
Print Assumptions C32_lines_pieces.

(* ---- lists ------------------------------------------------------------------------------------- *)
(* range terminates for all i64 pairs (fuel = j - i + 1) and counts from i to j - 1 *)
Theorem C32_range : forall i j, in64 i = true -> in64 j = true -> range (fuel_of_range i j) i j = Ok (spec_range i j).
Proof. exact range_spec. Qed.
Print Assumptions C32_range.

Theorem C32_concat : forall (A : Type) (this other : list A), concat this other = spec_concat this other.
Proof. intros; apply concat_spec. Qed.
Print Assumptions C32_concat.

Theorem C32_list_contains : forall (A : Type) (eqb : A -> A -> bool) this item, lcontains eqb this item = spec_lcontains eqb this item.
Proof. intros; apply lcontains_spec. Qed.
Print Assumptions C32_list_contains.

Theorem C32_get : forall (A : Type) (this : list A) index, get this index = spec_get this index.
Proof. intros; apply get_spec. Qed.
Print Assumptions C32_get.

Theorem C32_list_len : forall (A : Type) (this : list A), llen this = spec_llen this.
Proof. intros; apply llen_spec. Qed.
Print Assumptions C32_list_len.

Theorem C32_first : forall (A : Type) (this : list A), first this = spec_first this.
Proof. intros; apply first_spec. Qed.
Print Assumptions C32_first.

Theorem C32_last : forall (A : Type) (this : list A), small this -> last this = spec_last this.
Proof. intros; now apply last_spec. Qed.
Print Assumptions C32_last.

(* map / filter for a pure total closure f *)
Theorem C32_filter : forall (A : Type) (this : list A) f, filter this f = spec_filter this f.
Proof. intros; apply filter_spec. Qed.
Print Assumptions C32_filter.

Theorem C32_map : forall (A B : Type) (this : list A) (f : A -> B), map_ this f = spec_map this f.
Proof. intros; apply map_spec. Qed.
Print Assumptions C32_map.

Theorem C32_enumerate : forall (A : Type) (this : list A), small this -> enumerate this = spec_enumerate this.
Proof. intros; now apply enumerate_spec. Qed.
Print Assumptions C32_enumerate.

Theorem C32_list_index_of : forall (A : Type) (eqb : A -> A -> bool) (this : list A) value, small this -> lindex_of eqb this value = spec_lindex_of eqb this value.
Proof. intros; now apply lindex_of_spec. Qed.
Print Assumptions C32_list_index_of.

Theorem C32_list_index_of_meaning : forall (A : Type) (p : A -> bool) (l : list A) i, first_index p l = Some i <->
  (exists x, nth_error l i = Some x /\ p x = true) /\ forall j y, (j < i)%nat -> nth_error l j = Some y -> p y = false.
Proof. intros; apply first_index_meaning. Qed.
Print Assumptions C32_list_index_of_meaning.

(* slice: the items at positions i <= k < j (j < 0 counts from the end), never raises *)
Theorem C32_slice : forall (A : Type) (this : list A) i j, slice this i j = spec_slice this i j.
Proof. intros; apply slice_spec. Qed.
Print Assumptions C32_slice.

(* sort_nums terminates (recursion depth <= length) and returns the sorted permutation *)
Theorem C32_sort_nums : forall items, small items -> exists r, sort_nums (fuel_of_list items) items = Ok r /\ Sorted Z.le r /\ Permutation items r.
Proof. exact sort_nums_spec. Qed.
Print Assumptions C32_sort_nums.

Theorem C32_sort_nums_exec : forall items, small items -> sort_nums (fuel_of_list items) items = Ok (spec_sort items).
Proof. exact sort_nums_spec_exec. Qed.
Print Assumptions C32_sort_nums_exec.

Theorem C32_max : forall x y, max x y = Z.max x y.
Proof. exact max_spec. Qed.
Print Assumptions C32_max.

Theorem C32_min : forall x y, min x y = Z.min x y.
Proof. exact min_spec. Qed.
Print Assumptions C32_min.

(* ---- the code as it was before the fixes (fix-1, fix-2): refuted ---------------------------------- *)
(* `"a".split("")` ran out of every fuel *)
Theorem C32_split_old_refuted : forall fuel, split_old fuel [97%N] [] = OutOfFuel.
Proof. exact split_old_refuted. Qed.
Print Assumptions C32_split_old_refuted.

Theorem C32_replace_old_refuted : forall fuel after, replace_old fuel [97%N] [] after = OutOfFuel.
Proof. exact replace_old_refuted. Qed.
Print Assumptions C32_replace_old_refuted.

Theorem C32_index_of_old_refuted : string_index_of_old [] [] = None /\ spec_index_of [] [] = Some 0.
Proof. exact index_of_old_refuted. Qed.
Print Assumptions C32_index_of_old_refuted.

(* ---- the hypotheses are satisfiable / the statements are not vacuous ------------------------------ *)
Example ex_small : small [97%N; 44%N; 98%N].
Proof. reflexivity. Qed.
Print Assumptions ex_small.

Example ex_split : split (fuel_of_string [97;44;44;98;44]%N) [97;44;44;98;44]%N [44%N] = Ok [[97%N]; []; [98%N]; []].
Proof. reflexivity. Qed.
Print Assumptions ex_split.

Example ex_split_overlap : split (fuel_of_string [97;97;97]%N) [97;97;97]%N [97;97]%N = Ok [[]; [97%N]].
Proof. reflexivity. Qed.
Print Assumptions ex_split_overlap.

Example ex_split_empty : split (fuel_of_string [97;233]%N) [97;233]%N [] = Ok [[97%N]; [233%N]].
Proof. reflexivity. Qed.
Print Assumptions ex_split_empty.

Example ex_replace : replace (fuel_of_string [97;98;99;32;120;97;98;99]%N) [97;98;99;32;120;97;98;99]%N [97;98;99]%N [100%N] = Ok [100;32;120;100]%N.
Proof. reflexivity. Qed.
Print Assumptions ex_replace.

Example ex_contains : contains (fuel_of_string [97;98;99;100]%N) [97;98;99;100]%N [98;99]%N = Ok true.
Proof. reflexivity. Qed.
Print Assumptions ex_contains.

Example ex_index_of : index_of [9731;99]%N [99%N] = Some 1.
Proof. reflexivity. Qed.
Print Assumptions ex_index_of.

Example ex_substring : substring [97;98;99]%N 1 99 = Ok [98;99]%N /\ substring [97;98;99]%N 2 1 = Exn.
Proof. split; reflexivity. Qed.
Print Assumptions ex_substring.

Example ex_split_once : split_once [97;98;99;98;101]%N [98%N] = Ok (Some ([97%N], [99;98;101]%N)).
Proof. reflexivity. Qed.
Print Assumptions ex_split_once.

Example ex_sort_nums : sort_nums (fuel_of_list [3;1;2;1]) [3;1;2;1] = Ok [1;1;2;3].
Proof. reflexivity. Qed.
Print Assumptions ex_sort_nums.

Example ex_range : range (fuel_of_range 9223372036854775805 9223372036854775807) 9223372036854775805 9223372036854775807 = Ok [9223372036854775805; 9223372036854775806].
Proof. reflexivity. Qed.
Print Assumptions ex_range.

Example ex_slice : slice [10;11;12] 1 (-1) = [11] /\ slice [10;11;12] (-5) 99 = [10;11;12].
Proof. split; reflexivity. Qed.
Print Assumptions ex_slice.

Example ex_enumerate : enumerate [7;8] = [(0,7);(1,8)].
Proof. reflexivity. Qed.
Print Assumptions ex_enumerate.

Example ex_lines : lines [97;13;10;10;98;13]%N = [[97%N]; []; [98;13]%N].
Proof. reflexivity. Qed.
Print Assumptions ex_lines.

Example ex_trim : trim (fuel_of_string [32;97;32;98;32;32]%N) [32;97;32;98;32;32]%N = Ok [97;32;98]%N.
Proof. reflexivity. Qed.
Print Assumptions ex_trim.
