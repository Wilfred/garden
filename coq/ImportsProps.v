(* Proofs about the model of import loading and name resolution (Imports.v). *)
From Coq Require Import List NArith Arith Lia.
Import ListNotations.
From Garden Require Import Imports.

(* load_items runs a local loop over the items of the file; each iteration either updates the state or is
   an import, which may call load_items on the imported file. The functions below are one iteration and
   the loop, with the loader for imported files as a parameter [load]; load_items_S says that load_items
   is this loop. *)
Definition bind {A B} (o : Outcome A) (k : A -> Outcome B) : Outcome B :=
  match o with Ok a => k a | Panic => Panic | OutOfFuel => OutOfFuel end.

(* the state in which the file [target] is loaded when it is imported for the first time *)
Definition enter (st : LoadState) (target : nat) : LoadState :=
  {| st_env := get_or_create_ns (st_env st) target; st_remaining := remove_nat target (st_remaining st);
     st_failed := st_failed st; st_pending := st_pending st |}.

(* an unqualified import of a file that is in paths_seen already is remembered, to be completed at the end *)
Definition note_pending (sh : LoaderShape) (f target : nat) (alias : option N) (st : LoadState) : LoadState :=
  match alias with
  | None => if sh_finish_cyclic sh
            then {| st_env := st_env st; st_remaining := st_remaining st; st_failed := st_failed st;
                    st_pending := (f, target) :: st_pending st |}
            else st
  | Some _ => st
  end.

Definition bind_import (sh : LoaderShape) (f target : nat) (alias : option N) (st : LoadState) : Outcome LoadState :=
  bind (insert_imported sh (st_env st) alias f target) (fun e => Ok (with_env st e)).

Definition import_item (sh : LoaderShape) (proj : Project) (load : nat -> list Item -> LoadState -> Outcome LoadState)
    (f target : nat) (alias : option N) (st : LoadState) : Outcome LoadState :=
  if mem_nat target (st_remaining st) then
    match nth_error proj target with
    | None => Panic
    | Some titems => bind (load target titems (enter st target)) (bind_import sh f target alias)
    end
  else if target <? length proj then
    match get_ns (st_env st) target with
    | None => if sh_missing_ns_guard sh then Ok st else Panic
    | Some _ => bind_import sh f target alias (note_pending sh f target alias st)
    end
  else
    let e := match alias with Some a => set_value (st_env st) f a VPlaceholderNs | None => st_env st end in
    if mem_nat target (st_failed st)
    then (if sh_missing_ns_guard sh then Ok (with_env st e) else Panic)
    else Ok {| st_env := e; st_remaining := st_remaining st; st_failed := target :: st_failed st;
               st_pending := st_pending st |}.

Definition load_item (sh : LoaderShape) (proj : Project) (load : nat -> list Item -> LoadState -> Outcome LoadState)
    (f : nat) (i : Item) (st : LoadState) : Outcome LoadState :=
  let e := st_env st in
  match i with
  | IFun name vis => Ok (with_env st (set_exported (set_value e f name (VFun f name)) f name vis))
  | IMethod t m vis =>
      Ok (with_env st {| e_ns := e_ns e; e_types := e_types e; e_methods := ((t, m), (f, vis)) :: e_methods e |})
  | IEnum t vis _ | IStruct t vis =>
      Ok (with_env st {| e_ns := e_ns e; e_types := insert_N t (f, vis) (e_types e); e_methods := e_methods e |})
  | IImport target alias => import_item sh proj load f target alias st
  end.

Fixpoint load_loop (sh : LoaderShape) (proj : Project) (load : nat -> list Item -> LoadState -> Outcome LoadState)
    (f : nat) (its : list Item) (st : LoadState) : Outcome LoadState :=
  match its with
  | [] => Ok st
  | i :: rest => bind (load_item sh proj load f i st) (load_loop sh proj load f rest)
  end.

Lemma load_items_S : forall sh proj fuel f items st,
  load_items sh proj (S fuel) f items st =
  bind (load_loop sh proj (load_items sh proj fuel) f (sort_items items) st)
       (fun st' => Ok (with_env st' (add_variants sh f (st_env st') (sort_items items)))).
Proof.
  intros. cbn [load_items].
  set (go := fix go (its : list Item) (st0 : LoadState) {struct its} : Outcome LoadState := _).
  assert (G : forall its st0, go its st0 = load_loop sh proj (load_items sh proj fuel) f its st0).
  { induction its as [|i rest IH]; intros st0; [reflexivity|].
    destruct i as [| | | |target alias]; cbn [go load_loop load_item bind]; try apply IH.
    unfold import_item, bind_import, note_pending.
    destruct (mem_nat target (st_remaining st0)).
    - destruct (nth_error proj target) as [titems|]; [|reflexivity]. fold (enter st0 target).
      destruct (load_items sh proj fuel target titems (enter st0 target)) as [st2| |]; cbn [bind]; try reflexivity.
      destruct (insert_imported sh (st_env st2) alias f target); cbn [bind]; auto.
    - destruct (target <? length proj); [destruct (get_ns (st_env st0) target)|].
      + destruct alias; [|destruct (sh_finish_cyclic sh)];
          (destruct (insert_imported sh _ _ f target); cbn [bind]; auto).
      + destruct (sh_missing_ns_guard sh); cbn [bind]; auto.
      + destruct (mem_nat target (st_failed st0)); [destruct (sh_missing_ns_guard sh)|]; cbn [bind]; auto. }
  rewrite G. destruct (load_loop _ _ _ _ _ _); reflexivity.
Qed.

(* Termination: the nesting of loads is bounded by the number of files not yet in paths_seen.
   [shrinks st r]: r is not OutOfFuel, and if it is a state, no file has come back into st_remaining. *)
Definition shrinks (st : LoadState) (r : Outcome LoadState) : Prop :=
  match r with
  | Ok st' => length (st_remaining st') <= length (st_remaining st)
  | Panic => True
  | OutOfFuel => False
  end.

Lemma shrinks_bind : forall st r k,
  shrinks st r -> (forall st1, length (st_remaining st1) <= length (st_remaining st) -> shrinks st1 (k st1)) ->
  shrinks st (bind r k).
Proof.
  intros st [st1| |] k Hr Hk; cbn in *; auto.
  specialize (Hk st1 Hr). destruct (k st1); cbn in *; auto. lia.
Qed.

Lemma remove_nat_length_le : forall x l, length (remove_nat x l) <= length l.
Proof. intros. unfold remove_nat. induction l; cbn; auto. destruct (negb (x =? a)); cbn; lia. Qed.

Lemma remove_nat_length_lt : forall x l, mem_nat x l = true -> length (remove_nat x l) < length l.
Proof.
  intros x l. unfold mem_nat, remove_nat. induction l as [|a l IH]; cbn; [discriminate|].
  destruct (x =? a) eqn:E; cbn.
  - intros _. pose proof (remove_nat_length_le x l). unfold remove_nat in H. lia.
  - intros H. specialize (IH H). lia.
Qed.

Lemma bind_import_shrinks : forall sh f target alias st, shrinks st (bind_import sh f target alias st).
Proof.
  intros. unfold bind_import, insert_imported.
  destruct alias; [|destruct (f =? target); [destruct (sh_self_import_guard sh)|]]; cbn; auto.
Qed.

Section Fuel.
Variables (sh : LoaderShape) (proj : Project) (load : nat -> list Item -> LoadState -> Outcome LoadState) (n : nat).
Hypothesis Hload : forall t its st, length (st_remaining st) < n -> shrinks st (load t its st).

Lemma load_item_shrinks : forall f i st, length (st_remaining st) <= n -> shrinks st (load_item sh proj load f i st).
Proof.
  intros f i st Hn. destruct i as [| | | |target alias]; try apply le_n.
  cbn [load_item]. unfold import_item. destruct (mem_nat target (st_remaining st)) eqn:Emem.
  - destruct (nth_error proj target) as [titems|]; [|exact I].
    pose proof (remove_nat_length_lt _ _ Emem) as Hlt.
    apply shrinks_bind; [|intros; apply bind_import_shrinks].
    specialize (Hload target titems (enter st target)). cbn [enter st_remaining] in Hload.
    destruct (load target titems (enter st target)); cbn in *; auto; lia.
  - destruct (target <? length proj); [destruct (get_ns (st_env st) target)|].
    + pose proof (bind_import_shrinks sh f target alias (note_pending sh f target alias st)) as H.
      unfold note_pending in *. destruct alias; [|destruct (sh_finish_cyclic sh)]; exact H.
    + destruct (sh_missing_ns_guard sh); cbn; auto.
    + destruct (mem_nat target (st_failed st)); [destruct (sh_missing_ns_guard sh)|]; cbn; auto.
Qed.

Lemma load_loop_shrinks : forall f its st, length (st_remaining st) <= n -> shrinks st (load_loop sh proj load f its st).
Proof.
  intros f its. induction its as [|i rest IH]; intros st Hn; [apply le_n|].
  apply shrinks_bind; [now apply load_item_shrinks|]. intros st1 Hle. apply IH. lia.
Qed.
End Fuel.

Lemma load_items_fuel : forall sh proj fuel f items st,
  length (st_remaining st) < fuel -> shrinks st (load_items sh proj fuel f items st).
Proof.
  intros sh proj fuel. induction fuel as [|fuel IH]; intros f items st Hlt; [lia|].
  rewrite load_items_S. apply shrinks_bind; [|intros; apply le_n].
  apply load_loop_shrinks with (n := fuel); [apply IH | lia].
Qed.

Theorem load_terminates_lemma : forall sh proj root fuel,
  length proj < fuel -> load_root sh proj fuel root <> OutOfFuel.
Proof.
  intros sh proj root fuel Hlt. unfold load_root.
  destruct (nth_error proj root) as [items|]; [|discriminate].
  match goal with |- context [load_items sh proj fuel root items ?s] => set (st := s) end.
  assert (H : shrinks st (load_items sh proj fuel root items st))
    by (apply load_items_fuel; cbn; now rewrite seq_length).
  destruct (load_items sh proj fuel root items st); [discriminate|discriminate|contradiction].
Qed.

(* Qualified access: `a::x` resolves exactly when `a` is bound to the namespace of some file g,
   x has a value there and x is in g's exported_syms. *)
Theorem qualified_visible_iff_exported_lemma : forall e f a x,
  run_qualified e f a x = Resolved <->
  exists g, lookup_N a (ns_values (ns_of e f)) = Some (VNs g) /\
            lookup_N x (ns_values (ns_of e g)) <> None /\ mem_N x (ns_exported (ns_of e g)) = true.
Proof.
  intros e f a x. unfold run_qualified. split.
  - destruct (lookup_N a (ns_values (ns_of e f))) as [[| |g| |]|]; try discriminate.
    destruct (lookup_N x (ns_values (ns_of e g))) eqn:E1; try discriminate.
    destruct (mem_N x (ns_exported (ns_of e g))) eqn:E2; try discriminate.
    intros _. exists g. rewrite E1. repeat split; auto. discriminate.
  - intros (g & Ha & Hx & Hm). rewrite Ha. destruct (lookup_N x (ns_values (ns_of e g))); [|congruence].
    now rewrite Hm.
Qed.

(* Check time and run time take the same decision, for every environment. *)
Theorem check_and_run_agree_lemma : forall e f a x,
  check_qualified e f a x = run_qualified e f a x /\ check_unqualified e f x = run_unqualified e f x.
Proof.
  intros e f a x. split.
  - unfold check_qualified, run_qualified.
    destruct (lookup_N a (ns_values (ns_of e f))) as [[| |g| |]|]; try reflexivity.
    destruct (lookup_N x (ns_values (ns_of e g))); try reflexivity.
    destruct (mem_N x (ns_exported (ns_of e g))); reflexivity.
  - unfold check_unqualified, run_unqualified, ns_of. destruct (get_ns e f); reflexivity.
Qed.

(* Concrete projects. Names: 1 = pub_f, 2 = priv_f, 3 = PubVariant, 4 = PrivVariant, 10.. = aliases,
   20 = PubStruct, 21 = PrivStruct, 22 = PubEnum, 23 = PrivEnum, 30 = pub_m, 31 = priv_m on type 40. *)
Definition lib : File :=
  [ IFun 1 Public; IFun 2 Private; IEnum 22 Public [3%N]; IEnum 23 Private [4%N];
    IStruct 20 Public; IStruct 21 Private; IMethod 40 30 Public; IMethod 40 31 Private ].
Definition main_alias : File := [ IImport 1 (Some 10%N) ].
Definition main_plain : File := [ IImport 1 None ].

Definition loaded (sh : LoaderShape) (proj : Project) : option Env :=
  match load_root sh proj (S (length proj)) 0 with Ok e => Some e | _ => None end.

Definition option_map2 {A B} (f : A -> B) (o : option A) : option B := match o with Some a => Some (f a) | None => None end.

(* the expected finding: private struct / enum / method of an imported file ARE usable by the importer,
   with either import form, in the fixed loader too (types live in one global table) *)
Theorem types_visible_refuted_lemma :
  forall sh, In sh [shape_unfixed; shape_fixed] ->
  forall main, In main [main_alias; main_plain] ->
  option_map2 (fun e => (type_usable e 0 21, type_usable e 0 23, method_usable e 0 40 31)) (loaded sh [main; lib])
  = Some (Resolved, Resolved, Resolved).
Proof.
  intros sh [<-|[<-|[]]] main [<-|[<-|[]]]; vm_compute; reflexivity.
Qed.

(* values: exactly the public ones, both import forms (fixed loader; variants included) *)
Lemma values_example_fixed :
  option_map2 (fun e => (run_qualified e 0 10 1, run_qualified e 0 10 2, run_qualified e 0 10 3, run_qualified e 0 10 4,
                         run_qualified e 0 10 0 (* prelude through the namespace *), run_qualified e 0 10 99))
              (loaded shape_fixed [main_alias; lib])
  = Some (Resolved, Rejected, Resolved, Rejected, Rejected, Rejected)
  /\
  option_map2 (fun e => (run_unqualified e 0 1, run_unqualified e 0 2, run_unqualified e 0 3, run_unqualified e 0 4))
              (loaded shape_fixed [main_plain; lib])
  = Some (Resolved, Rejected, Resolved, Rejected).
Proof. vm_compute. split; reflexivity. Qed.

(* the unfixed loader: variants of a public enum are NOT reachable *)
Lemma unfixed_public_variant_unreachable :
  option_map2 (fun e => (run_qualified e 0 10 3)) (loaded shape_unfixed [main_alias; lib]) = Some Rejected /\
  option_map2 (fun e => (run_unqualified e 0 3)) (loaded shape_unfixed [main_plain; lib]) = Some Rejected.
Proof. vm_compute. split; reflexivity. Qed.

(* the unfixed loader panics on an unqualified self-import and on a missing file imported twice *)
Lemma unfixed_self_import_panics :
  load_root shape_unfixed [[IImport 0 None; IFun 1 Public]] 2 0 = Panic /\
  loaded shape_fixed [[IImport 0 None; IFun 1 Public]] <> None.
Proof. vm_compute. split; [reflexivity|discriminate]. Qed.
Lemma unfixed_missing_twice_panics :
  load_root shape_unfixed [[IImport 7 (Some 10%N); IImport 7 (Some 11%N)]] 2 0 = Panic /\
  loaded shape_fixed [[IImport 7 (Some 10%N); IImport 7 (Some 11%N)]] <> None.
Proof. vm_compute. split; [reflexivity|discriminate]. Qed.

(* cycle b <-> c reached from main, all unqualified: in the unfixed loader c does not see b's public
   function (b was still being loaded when c imported it); in the fixed loader it does *)
Definition cyc : Project :=
  [ [IImport 1 None]; [IImport 2 None; IFun 1 Public]; [IImport 1 None; IFun 5 Public] ].
Lemma cyclic_unqualified_import :
  option_map2 (fun e => run_unqualified e 2 1) (loaded shape_unfixed cyc) = Some Rejected /\
  option_map2 (fun e => (run_unqualified e 2 1, run_unqualified e 1 5, run_unqualified e 0 1, run_unqualified e 0 5))
              (loaded shape_fixed cyc) = Some (Resolved, Resolved, Resolved, Rejected).
Proof. vm_compute. split; reflexivity. Qed.
