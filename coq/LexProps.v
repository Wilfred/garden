(* The lexer model (Lex.v) never panics, always advances, and
   reports positions that agree with an independent specification of line and
   column; printed strings lex back to themselves; the code before each of the
   three fixes is refuted on a concrete input.

   Everything is stated for a source split as `p ++ s` with the lexer standing
   at byte offset `blen p`: a char boundary by construction, so that slices
   and line lookups reduce by the `_app` lemmas of Base/UtfProps.v.  What an
   iteration consumes there is decided by s alone (EditAlgebra.kstep); p only
   enters the positions (lex_step_kstep). *)
From Coq Require Import NArith Bool List Lia.
From Garden Require Import Base.Utf Base.UtfProps Lex EditAlgebra.
Import ListNotations.
Open Scope N_scope.

Lemma boundary_iff : forall s o, boundary s o <-> is_boundary s o = true.
Proof. intros s o. symmetry. apply is_boundary_iff. Qed.

(* The specification of line and column at byte offset o: o is the byte length of a
   prefix p (so a char boundary), and the column counts the bytes after the last `\n` of p. *)
Definition line_col (src : list N) (o l c : N) : Prop :=
  exists p q, src = p ++ q /\ blen p = o /\ l = count_lf p /\ c = blen (after_last_lf p).

Definition pos_wf (src : list N) (p : pos) : Prop :=
  start_offset p <= end_offset p /\ end_offset p <= blen src /\
  line_col src (start_offset p) (line p) (column p) /\
  line_col src (end_offset p) (end_line p) (end_column p).

Definition comment_wf (src : list N) (c : comment) : Prop := pos_wf src (fst c).
Definition token_wf (src : list N) (t : token) : Prop :=
  pos_wf src (tpos t) /\
  slice src (start_offset (tpos t)) (end_offset (tpos t)) = Some (ttext t) /\
  ttext t <> [] /\
  Forall (comment_wf src) (tcomments t).
Definition error_wf (src : list N) (e : lex_error) : Prop := pos_wf src (epos e).

Definition result_wf (src : list N) (r : lex_result) : Prop :=
  match r with
  | LexOk ts tr es => Forall (token_wf src) ts /\ Forall (comment_wf src) tr /\ Forall (error_wf src) es
  | _ => False
  end.

Lemma line_col_app : forall p q, line_col (p ++ q) (blen p) (count_lf p) (blen (after_last_lf p)).
Proof. intros p q. now exists p, q. Qed.

Lemma line_col_boundary : forall src o l c, line_col src o l c -> boundary src o /\ o <= blen src.
Proof.
  intros src o l c (p & q & -> & <- & _). split; [now exists p, q|]. rewrite blen_app. lia.
Qed.

Lemma line_col_fun : forall src o l c l' c', line_col src o l c -> line_col src o l' c' -> l = l' /\ c = c'.
Proof.
  intros src o l c l' c' (p & q & E & B & -> & ->) (p' & q' & E' & B' & -> & ->).
  subst src. destruct (prefix_unique p q p' q' E') as [-> _]; [lia|]. now split.
Qed.

Lemma line_col_mono : forall src o1 l1 c1 o2 l2 c2,
  line_col src o1 l1 c1 -> line_col src o2 l2 c2 -> o1 <= o2 -> l1 <= l2.
Proof.
  intros src o1 l1 c1 o2 l2 c2 (p & q & E & B & -> & _) (p' & q' & E' & B' & -> & _) L.
  subst src. destruct (prefixes_nest p q p' q' E') as (d & -> & _); [lia|].
  rewrite count_lf_app. lia.
Qed.

Lemma from_offset_go_app : forall p a q,
  from_offset_go (p ++ q) (blen p) (count_lf a) (blen (after_last_lf a)) =
  Some (count_lf (a ++ p), blen (after_last_lf (a ++ p))).
Proof.
  induction p as [|c p IH]; intros a q.
  - rewrite app_nil_r. destruct q; reflexivity.
  - specialize (IH (a ++ [c]) q). rewrite <- app_assoc in IH. cbn [app] in IH. rewrite <- IH.
    cbn [app blen from_offset_go]. pose proof (len_utf8_range c) as Hc.
    rewrite (proj2 (N.eqb_neq _ 0)), (proj2 (N.ltb_ge _ _)), count_lf_app by lia. cbn [count_lf].
    destruct (N.eqb_spec c LF) as [->|E].
    + change (len_utf8 LF) with 1. rewrite after_last_lf_app_lf by reflexivity. f_equal; lia || reflexivity.
    + rewrite after_last_lf_app_nolf, blen_app by now apply count_lf_single. f_equal; cbn [blen]; lia.
Qed.

Lemma from_offset_app : forall p q,
  from_offset (p ++ q) (blen p) = Some (count_lf p, blen (after_last_lf p)).
Proof. intros p q. exact (from_offset_go_app p [] q). Qed.

Lemma from_offset_spec : forall src o, boundary src o ->
  exists l c, from_offset src o = Some (l, c) /\ line_col src o l c.
Proof.
  intros src o (p & q & -> & <-). rewrite from_offset_app.
  eexists _, _. split; [reflexivity|apply line_col_app].
Qed.

Definition line_pos (p : list N) (n : N) : pos :=
  mkpos (blen p) (blen p + n) (count_lf p) (count_lf p)
        (blen (after_last_lf p)) (blen (after_last_lf p) + n).

Lemma single_line_pos_app : forall p s n, single_line_pos (p ++ s) (blen p) n = Some (line_pos p n).
Proof. intros p s n. unfold single_line_pos. now rewrite from_offset_app. Qed.

(* the position of the text m that follows the prefix p: both ends as `from_offset` finds them *)
Definition text_pos (p m : list N) : pos :=
  mkpos (blen p) (blen p + blen m) (count_lf p) (count_lf (p ++ m))
        (blen (after_last_lf p)) (blen (after_last_lf (p ++ m))).

Lemma text_pos_wf : forall p m r, pos_wf (p ++ m ++ r) (text_pos p m).
Proof.
  intros p m r. unfold pos_wf, text_pos. cbn [start_offset end_offset line end_line column end_column].
  rewrite !blen_app. repeat split; try lia; [apply line_col_app|].
  rewrite <- blen_app, app_assoc. apply line_col_app.
Qed.

Lemma line_pos_text : forall p m, count_lf m = 0 -> line_pos p (blen m) = text_pos p m.
Proof.
  intros p m H. unfold line_pos, text_pos.
  now rewrite count_lf_app, after_last_lf_app_nolf, blen_app, H, N.add_0_r.
Qed.

(* Position::merge; no hypothesis on how a and b lie to each other is needed *)
Lemma merge_wf_lemma : forall src a b, pos_wf src a -> pos_wf src b -> pos_wf src (merge a b).
Proof.
  intros src a b (A1 & A2 & A3 & A4) (B1 & B2 & B3 & B4).
  unfold pos_wf, merge. cbn [start_offset end_offset line end_line column end_column].
  destruct (N.ltb_spec (end_offset b) (end_offset a)) as [L|L].
  - assert (Hl : end_line b <= end_line a) by (eapply line_col_mono; [exact B4|exact A4|lia]).
    rewrite (N.max_l (end_offset a)) by lia. rewrite (N.max_l (end_line a)) by lia.
    repeat split; assumption.
  - assert (Hl : end_line a <= end_line b) by (eapply line_col_mono; [exact A4|exact B4|lia]).
    rewrite (N.max_r (end_offset a)) by lia. rewrite (N.max_r (end_line a)) by lia.
    repeat split; try assumption. lia.
Qed.

Definition stops (f : N -> bool) (b : list N) : Prop :=
  match b with [] => True | c :: _ => f c = false end.

Lemma span_spec : forall f s a b, span f s = (a, b) ->
  s = a ++ b /\ Forall (fun c => f c = true) a /\ stops f b.
Proof.
  induction s as [|c s IH]; intros a b H.
  - inversion H; subst. now repeat constructor.
  - cbn [span] in H. destruct (f c) eqn:Ec.
    + destruct (span f s) as [a' b'] eqn:E. inversion H; subst.
      destruct (IH a' b eq_refl) as (-> & F & S). now repeat constructor.
    + inversion H; subst. now repeat constructor.
Qed.

Lemma span_app : forall (f : N -> bool) a b, Forall (fun c => f c = true) a -> stops f b -> span f (a ++ b) = (a, b).
Proof.
  intros f a b F Hb. induction F as [|c a Hc F IH].
  - destruct b as [|c b]; [reflexivity|]. cbn [app span]. now rewrite Hb.
  - cbn [app span]. now rewrite Hc, IH.
Qed.

Lemma app_prefix_len : forall (b r u A : list N), b ++ r = u ++ A -> (length b <= length u)%nat ->
  exists u2, u = b ++ u2 /\ r = u2 ++ A.
Proof.
  induction b as [|c b IH]; intros r u A E L; [now exists u|].
  destruct u as [|x u]; [cbn [length] in L; lia|]. cbn [app] in E. injection E as -> E.
  cbn [length] in L. destruct (IH r u A E) as (u2 & -> & ->); [lia|]. now exists u2.
Qed.

(* `stops f B` is for the scan that ends exactly at the end of u *)
Lemma span_local : forall f u A B, stops f B -> (length (fst (span f (u ++ A))) <= length u)%nat ->
  exists a r, u = a ++ r /\ span f (u ++ A) = (a, r ++ A) /\ span f (u ++ B) = (a, r ++ B).
Proof.
  intros f u A B HB L. destruct (span f (u ++ A)) as [a b] eqn:E. cbn [fst] in L.
  destruct (span_spec _ _ _ _ E) as (Eu & Fa & Sb).
  destruct (app_prefix_len a b u A (eq_sym Eu) L) as (r & -> & ->).
  exists a, r. rewrite <- app_assoc, span_app; [now repeat split|exact Fa|]. now destruct r.
Qed.

Lemma forall_nolf : forall (f : N -> bool) m, f LF = false ->
  Forall (fun c => f c = true) m -> count_lf m = 0.
Proof.
  intros f m Hf F. induction F as [|c m Hc F IH]; [reflexivity|].
  rewrite count_lf_cons_ne; [exact IH|]. intros ->. congruence.
Qed.

Lemma scan_digits_spec : forall s a b, scan_digits s = Some (a, b) ->
  s = a ++ b /\ a <> [] /\ count_lf a = 0.
Proof.
  intros [|c s] a b H; [discriminate|]. cbn [scan_digits] in H.
  destruct (is_digit c) eqn:Ec; [|discriminate].
  destruct (span is_digit_us s) as [a' b'] eqn:E. inversion H; subst.
  destruct (span_spec _ _ _ _ E) as (-> & F & _). split; [reflexivity|]. split; [discriminate|].
  rewrite count_lf_cons_ne by (intros ->; discriminate).
  now apply (forall_nolf is_digit_us).
Qed.

Lemma opt_minus_spec : forall s sg s1, opt_minus s = (sg, s1) -> s = sg ++ s1 /\ count_lf sg = 0.
Proof.
  intros [|c s] sg s1 H; cbn [opt_minus] in H.
  - inversion H; subst. now split.
  - destruct (N.eqb_spec c MINUS) as [E|E]; inversion H; subst; now split.
Qed.

Lemma integer_re_spec : forall s m, integer_re s = Some m ->
  exists r, s = m ++ r /\ m <> [] /\ count_lf m = 0.
Proof.
  intros s m H. unfold integer_re in H.
  destruct (opt_minus s) as [sg s1] eqn:E1. destruct (opt_minus_spec _ _ _ E1) as [-> Hsg].
  destruct (scan_digits s1) as [[a b]|] eqn:E2; [|discriminate]. inversion H; subst.
  destruct (scan_digits_spec _ _ _ E2) as (-> & Ha & Hc).
  exists b. rewrite app_assoc. split; [reflexivity|]. split.
  - destruct sg; [exact Ha|discriminate].
  - rewrite count_lf_app. lia.
Qed.

Lemma float_re_spec : forall s m, float_re s = Some m ->
  exists r, s = m ++ r /\ m <> [] /\ count_lf m = 0.
Proof.
  intros s m H. unfold float_re in H.
  destruct (opt_minus s) as [sg s1] eqn:E1. destruct (opt_minus_spec _ _ _ E1) as [-> Hsg].
  destruct (scan_digits s1) as [[a r1]|] eqn:E2; [|discriminate].
  destruct (scan_digits_spec _ _ _ E2) as (-> & Ha & Hc).
  destruct r1 as [|d r2]; [discriminate|].
  destruct (N.eqb_spec d DOT) as [Ed|Ed]; [|discriminate]. subst d.
  destruct (scan_digits r2) as [[b r3]|] eqn:E3; [|discriminate]. inversion H; subst.
  destruct (scan_digits_spec _ _ _ E3) as (-> & Hb & Hcb).
  exists r3. split.
  - now rewrite <- !app_assoc.
  - split.
    + destruct sg; [|discriminate]. destruct a; [congruence|discriminate].
    + rewrite !count_lf_app. rewrite count_lf_cons_ne by discriminate. lia.
Qed.

Lemma symbol_re_spec : forall s m, symbol_re s = Some m ->
  exists r, s = m ++ r /\ m <> [] /\ count_lf m = 0.
Proof.
  intros [|c s] m H; [discriminate|]. cbn [symbol_re] in H.
  destruct (is_sym_start c) eqn:Ec; [|discriminate]. inversion H; subst.
  destruct (span is_sym_char s) as [a b] eqn:E. destruct (span_spec _ _ _ _ E) as (-> & F & _).
  exists b. cbn [fst]. split; [reflexivity|]. split; [discriminate|].
  rewrite count_lf_cons_ne by (intros ->; discriminate).
  now apply (forall_nolf is_sym_char).
Qed.

(* string_body recurses on the tail or on the tail's tail: induction on a bound of the length *)
Lemma string_body_prefix_len : forall b n s, (length s <= n)%nat -> exists r, s = string_body b s ++ r.
Proof.
  induction n as [|n IH]; intros s L.
  - destruct s; [|cbn in L; lia]. now exists [].
  - destruct s as [|c s]; [now exists []|]. cbn [length] in L. cbn [string_body].
    destruct (N.eqb_spec c QUOTE) as [->|_]; [now exists s|].
    destruct (c =? BACKSLASH).
    + destruct s as [|d s']; [now exists []|].
      destruct (if b then negb (d =? LF) else d =? QUOTE).
      * cbn [length] in L. destruct (IH s') as [r Hr]; [lia|]. exists r. cbn [app]. now rewrite <- Hr.
      * destruct (IH (d :: s')) as [r Hr]; [lia|]. exists r. cbn [app]. now rewrite <- Hr.
    + destruct (IH s) as [r Hr]; [lia|]. exists r. cbn [app]. now rewrite <- Hr.
Qed.

Lemma string_body_prefix : forall b s, exists r, s = string_body b s ++ r.
Proof. intros b s. now apply (string_body_prefix_len b (length s)). Qed.

Lemma string_re_spec : forall b s m, string_re b s = Some m ->
  exists r t, s = m ++ r /\ m = QUOTE :: t.
Proof.
  intros b [|c s] m H; [discriminate|]. cbn [string_re] in H.
  destruct (N.eqb_spec c QUOTE) as [E|E]; [|discriminate]. inversion H; subst.
  destruct (string_body_prefix b s) as [r Hr]. exists r, (string_body b s).
  split; [|reflexivity]. cbn [app]. now rewrite <- Hr.
Qed.

Lemma before_lf_spec : forall t, exists r, t = before_lf t ++ r /\ count_lf (before_lf t) = 0.
Proof.
  induction t as [|c t (r & Hr & Hc)]; [now exists []|].
  cbn [before_lf]. destruct (N.eqb_spec c LF) as [E|E].
  - now exists (c :: t).
  - exists r. cbn [app]. rewrite <- Hr. split; [reflexivity|]. now rewrite count_lf_cons_ne.
Qed.

Lemma before_lf_app : forall m x, count_lf m = 0 -> before_lf (m ++ x) = m ++ before_lf x.
Proof.
  induction m as [|c m IH]; intros x H; [reflexivity|]. cbn [app before_lf].
  apply count_lf_cons0 in H as [Hn H]. apply N.eqb_neq in Hn. now rewrite Hn, IH.
Qed.

Lemma upto_lf_app : forall m x, count_lf m = 0 -> upto_lf (m ++ x) = m ++ upto_lf x.
Proof.
  induction m as [|c m IH]; intros x H; [reflexivity|]. cbn [app upto_lf].
  apply count_lf_cons0 in H as [Hn H]. apply N.eqb_neq in Hn. now rewrite Hn, IH.
Qed.

Lemma two_char_table_ascii :
  forallb (fun ab => (fst ab <? 128) && (snd ab <? 128) && negb (fst ab =? LF) && negb (snd ab =? LF))
          two_char_tokens = true.
Proof. vm_compute. reflexivity. Qed.

Lemma one_char_table_ascii :
  forallb (fun a => (a <? 128) && negb (a =? LF)) one_char_tokens = true.
Proof. vm_compute. reflexivity. Qed.

Lemma two_char_hit : forall s,
  existsb (fun ab => starts_with2 (fst ab) (snd ab) s) two_char_tokens = true ->
  exists a b r, s = [a; b] ++ r /\ blen [a; b] = 2 /\ count_lf [a; b] = 0.
Proof.
  intros s H. apply existsb_exists in H. destruct H as ([a b] & Hin & Hs).
  pose proof two_char_table_ascii as T. rewrite forallb_forall in T. specialize (T _ Hin).
  cbn [fst snd] in *. apply andb_prop in T as [T Tb]. apply andb_prop in T as [T Ta].
  apply andb_prop in T as [La Lb]. apply N.ltb_lt in La, Lb.
  destruct s as [|x [|y r]]; try discriminate. cbn [starts_with2] in Hs.
  apply andb_prop in Hs as [Ex Ey]. apply N.eqb_eq in Ex, Ey. subst x y.
  exists a, b, r. split; [reflexivity|]. split.
  - cbn [blen]. rewrite !len_utf8_ascii by assumption. reflexivity.
  - cbn [count_lf]. destruct (a =? LF); [discriminate|]. destruct (b =? LF); [discriminate|]. reflexivity.
Qed.

Lemma one_char_hit : forall c, existsb (N.eqb c) one_char_tokens = true -> len_utf8 c = 1 /\ c <> LF.
Proof.
  intros c H. apply existsb_exists in H. destruct H as (a & Hin & E). apply N.eqb_eq in E. subst a.
  pose proof one_char_table_ascii as T. rewrite forallb_forall in T. specialize (T _ Hin).
  apply andb_prop in T as [L Nl]. apply N.ltb_lt in L. split; [now apply len_utf8_ascii|].
  intros ->. discriminate.
Qed.

Lemma starts_with2_head : forall a b x s, x <> a -> starts_with2 a b (x :: s) = false.
Proof.
  intros a b x [|y s] H; [reflexivity|]. cbn [starts_with2].
  destruct (N.eqb_spec x a); [contradiction|reflexivity].
Qed.

Lemma match_token_app : forall p m r,
  match_token (p ++ m ++ r) (blen p) m = SToken (line_pos p (blen m)) m (blen m).
Proof. intros p m r. unfold match_token. now rewrite single_line_pos_app. Qed.

Lemma slice_token_app : forall p m r,
  slice_token (p ++ m ++ r) (m ++ r) (blen p) (blen m) = SToken (line_pos p (blen m)) m (blen m).
Proof. intros p m r. unfold slice_token. now rewrite single_line_pos_app, take_bytes_app. Qed.

Definition step_of (p : list N) (k : kind) (t : list N) : step :=
  match k with
  | KSkip => SSkip (blen t)
  | KComment => SComment (text_pos p (before_lf t)) t (blen t)
  | KToken => SToken (text_pos p t) t (blen t)
  | KErrToken => SErrToken (text_pos p t) UnclosedString (text_pos p t) t (blen t)
  | KErr => SErr (text_pos p t) (Unrecognized t) (blen t)
  end.

Definition positioned (p s : list N) (st : step) (ks : option (kind * list N)) : Prop :=
  exists k t r, s = t ++ r /\ t <> [] /\ ks = Some (k, t) /\ st = step_of p k t.

Lemma positioned_intro : forall p k t r st, t <> [] -> st = step_of p k t ->
  positioned p (t ++ r) st (Some (k, t)).
Proof. intros p k t r st Ht E. now exists k, t, r. Qed.

Lemma positioned_line_token : forall p m r, m <> [] -> count_lf m = 0 ->
  positioned p (m ++ r) (SToken (line_pos p (blen m)) m (blen m)) (Some (KToken, m)).
Proof. intros p m r Hm Hc. apply positioned_intro; [exact Hm|]. cbn [step_of]. now rewrite line_pos_text. Qed.

Lemma lex_step_kstep : forall p s, s <> [] ->
  positioned p s (lex_step cfg_fixed (p ++ s) (blen p)) (kstep s).
Proof.
  intros p s Hs. unfold lex_step, kstep. rewrite drop_bytes_app.
  destruct (starts_with2 SLASH SLASH s) eqn:Ecom.
  { (* comment: the text includes the `\n` that ends it, the position does not *)
    rewrite from_offset_app. destruct (find_lf s) as [i|] eqn:Ef.
    - destruct (find_lf_some _ _ Ef) as (m & r & -> & <- & Hc).
      rewrite (upto_lf_app m (LF :: r) Hc). cbn [upto_lf]. rewrite N.eqb_refl.
      change (m ++ LF :: r) with (m ++ [LF] ++ r). rewrite (app_assoc m).
      change (blen m + 1) with (blen m + blen [LF]). rewrite <- blen_app, take_bytes_app.
      apply positioned_intro; [now destruct m|]. cbn [step_of].
      now rewrite (before_lf_app m [LF] Hc), app_nil_r, <- line_pos_text.
    - pose proof (find_lf_none _ Ef) as Hc.
      pose proof (upto_lf_app s [] Hc) as U. pose proof (before_lf_app s [] Hc) as V.
      cbn [upto_lf before_lf] in U, V. rewrite !app_nil_r in U, V. rewrite U.
      exists KComment, s, []. cbn [step_of]. now rewrite app_nil_r, V, <- line_pos_text. }
  destruct s as [|c s']; [congruence|].
  destruct (is_whitespace c) eqn:Ews.
  { apply (positioned_intro p KSkip [c] s'); [discriminate|]. cbn [step_of fix_a cfg_fixed]. now rewrite blen_single. }
  assert (Hlf : c <> LF) by (intros ->; discriminate Ews).
  destruct (existsb _ two_char_tokens) eqn:E2.
  { destruct (two_char_hit _ E2) as (a & b & r & Es & Hb & Hc).
    cbn [app] in Es. injection Es as -> ->. rewrite <- Hb. change (a :: b :: r) with ([a; b] ++ r).
    rewrite slice_token_app. now apply positioned_line_token. }
  destruct (float_re (c :: s')) as [m|] eqn:Efl.
  { destruct (float_re_spec _ _ Efl) as (r & -> & Hm & Hc). rewrite match_token_app. now apply positioned_line_token. }
  destruct (integer_re (c :: s')) as [m|] eqn:Eint.
  { destruct (integer_re_spec _ _ Eint) as (r & -> & Hm & Hc). rewrite match_token_app. now apply positioned_line_token. }
  destruct (existsb (N.eqb c) one_char_tokens) eqn:E1.
  { destruct (one_char_hit _ E1) as [L1 _]. rewrite <- L1, <- blen_single.
    change (c :: s') with ([c] ++ s'). rewrite slice_token_app.
    apply positioned_line_token; [discriminate|now apply count_lf_single]. }
  cbn [fix_a fix_b fix_c cfg_fixed].
  destruct (string_re true (c :: s')) as [text|] eqn:Estr.
  { destruct (string_re_spec _ _ _ Estr) as (r & t & -> & Et).
    destruct (ends_with_quote text) eqn:Eq.
    - (* well-formed string, possibly spanning several lines: the end is looked up like the start *)
      rewrite from_offset_app, <- blen_app, app_assoc, from_offset_app, blen_app.
      apply positioned_intro; [subst text; discriminate|reflexivity].
    - (* unclosed string: up to the end of the line *)
      destruct (before_lf_spec text) as (r' & Hr' & Hc).
      assert (Hne : before_lf text <> []).
      { subst text. cbn [before_lf]. destruct (N.eqb_spec QUOTE LF); discriminate. }
      set (tc := before_lf text) in *. rewrite Hr', <- app_assoc, single_line_pos_app.
      apply positioned_intro; [exact Hne|]. cbn [step_of]. now rewrite line_pos_text. }
  destruct (symbol_re (c :: s')) as [m|] eqn:Esym.
  { destruct (symbol_re_spec _ _ Esym) as (r & -> & Hm & Hc). rewrite match_token_app. now apply positioned_line_token. }
  (* unrecognised character *)
  rewrite <- blen_single. change (c :: s') with ([c] ++ s').
  rewrite single_line_pos_app, take_bytes_app.
  apply positioned_intro; [discriminate|]. cbn [step_of]. now rewrite line_pos_text by now apply count_lf_single.
Qed.

Lemma lex_step_of_kstep : forall p s k t, kstep s = Some (k, t) ->
  lex_step cfg_fixed (p ++ s) (blen p) = step_of p k t.
Proof.
  intros p s k t H. destruct s as [|c s']; [discriminate|].
  destruct (lex_step_kstep p (c :: s')) as (k' & t' & r & _ & _ & E & ->); [discriminate|].
  rewrite H in E. now injection E as <- <-.
Qed.

Lemma kstep_prefix : forall s k t, kstep s = Some (k, t) -> exists r, s = t ++ r /\ t <> [].
Proof.
  intros s k t H. destruct s as [|c s']; [discriminate|].
  destruct (lex_step_kstep [] (c :: s')) as (k' & t' & r & Es & Ht & E & _); [discriminate|].
  rewrite H in E. injection E as -> ->. now exists r.
Qed.

Lemma kstep_ws : forall c r, is_whitespace c = true -> kstep (c :: r) = Some (KSkip, [c]).
Proof.
  intros c r H. unfold kstep. now rewrite starts_with2_head, H by (intros ->; discriminate H).
Qed.

Definition consumed (s t : list N) (n : N) : Prop := exists r, s = t ++ r /\ t <> [] /\ n = blen t.
Definition adv (s : list N) (n : N) : Prop := exists t, consumed s t n.

Definition spans (ps : pos) (o n : N) : Prop := start_offset ps = o /\ end_offset ps = o + n.

(* The invariant of an iteration at offset `blen p` of `src = p ++ s`: no panic, a non-empty
   prefix of s consumed, every position well-formed, a token's text the consumed prefix. *)
Definition step_ok (src p s : list N) (st : step) : Prop :=
  match st with
  | SPanic => False
  | SBreak => False
  | SSkip n => adv s n
  | SComment ps t n => consumed s t n /\ pos_wf src ps
  | SToken ps t n => consumed s t n /\ pos_wf src ps /\ spans ps (blen p) n
  | SErrToken ep _ ps t n => consumed s t n /\ pos_wf src ps /\ spans ps (blen p) n /\ pos_wf src ep
  | SErr ep _ n => adv s n /\ pos_wf src ep
  end.

Lemma positioned_ok : forall p s st ks, positioned p s st ks -> step_ok (p ++ s) p s st.
Proof.
  intros p s st ks (k & t & r & -> & Ht & _ & ->).
  assert (C : consumed (t ++ r) t (blen t)) by now exists r.
  pose proof (text_pos_wf p t r) as W.
  destruct k; cbn [step_of step_ok].
  - now exists t.
  - split; [exact C|]. destruct (before_lf_spec t) as (r' & Hr' & _).
    rewrite Hr' at 1. rewrite <- app_assoc. apply text_pos_wf.
  - split; [exact C|]. split; [exact W|now split].
  - split; [exact C|]. split; [exact W|]. split; [now split|exact W].
  - split; [now exists t|exact W].
Qed.

Lemma lex_step_ok : forall p s, s <> [] ->
  step_ok (p ++ s) p s (lex_step cfg_fixed (p ++ s) (blen p)).
Proof. intros p s Hs. exact (positioned_ok p s _ _ (lex_step_kstep p s Hs)). Qed.

Lemma blen_lt_app : forall p s, s <> [] -> blen p <? blen (p ++ s) = true.
Proof. intros p s H. apply N.ltb_lt. rewrite blen_app. pose proof (blen_nonempty s H). lia. Qed.

Lemma slice_app3 : forall p t r, slice (p ++ t ++ r) (blen p) (blen p + blen t) = Some t.
Proof.
  intros p t r. unfold slice.
  destruct (N.ltb_spec (blen p + blen t) (blen p)) as [L|_]; [lia|].
  rewrite drop_bytes_app. replace (blen p + blen t - blen p) with (blen t) by lia.
  apply take_bytes_app.
Qed.

Lemma cons_tok_wf : forall src t r, token_wf src t -> result_wf src r -> result_wf src (cons_tok t r).
Proof.
  intros src t [ts tr es| |] Ht Hr; cbn in *; try contradiction.
  destruct Hr as (A & B & C). repeat split; try assumption. now constructor.
Qed.

Lemma cons_err_wf : forall src e r, error_wf src e -> result_wf src r -> result_wf src (cons_err e r).
Proof.
  intros src e [ts tr es| |] He Hr; cbn in *; try contradiction.
  destruct Hr as (A & B & C). repeat split; try assumption. now constructor.
Qed.

Lemma token_wf_intro : forall p s t n ps pc, consumed s t n ->
  pos_wf (p ++ s) ps -> spans ps (blen p) n -> Forall (comment_wf (p ++ s)) pc ->
  token_wf (p ++ s) (mktoken ps t pc).
Proof.
  intros p s t n ps pc (r & -> & Ht & ->) W [S1 S2] Hpc. unfold token_wf. cbn [tpos ttext tcomments].
  rewrite S1, S2. split; [exact W|]. split; [apply slice_app3|]. now split.
Qed.

(* the fuel is a bound on the number of chars left: every iteration consumes at least one *)
Lemma lex_loop_ok : forall src fuel p s pc,
  src = p ++ s -> (length s < fuel)%nat -> Forall (comment_wf src) pc ->
  result_wf src (lex_loop cfg_fixed fuel src (blen src) (blen p) pc).
Proof.
  intros src fuel. induction fuel as [|f IH]; intros p s pc E L Hpc; [lia|].
  cbn [lex_loop]. destruct s as [|c s'].
  - rewrite E, app_nil_r, N.ltb_irrefl, <- (app_nil_r p), <- E.
    repeat split; [constructor|assumption|constructor].
  - rewrite E at 2. rewrite blen_lt_app by discriminate.
    pose proof (lex_step_ok p (c :: s') ltac:(discriminate)) as H. rewrite <- E in H.
    assert (K : forall t n pc', consumed (c :: s') t n -> Forall (comment_wf src) pc' ->
                result_wf src (lex_loop cfg_fixed f src (blen src) (blen p + n) pc')).
    { intros t n pc' (r & Es & Ht & ->) Hpc'. rewrite <- blen_app. apply (IH (p ++ t) r pc').
      - rewrite E, Es. apply app_assoc.
      - apply (f_equal (@length N)) in Es. rewrite app_length in Es.
        destruct t; [congruence|]. cbn [length] in *. lia.
      - exact Hpc'. }
    assert (T : forall ps t n pc', consumed (c :: s') t n -> pos_wf src ps -> spans ps (blen p) n ->
                Forall (comment_wf src) pc' -> token_wf src (mktoken ps t pc')).
    { rewrite E. intros ps t n pc'. apply token_wf_intro. }
    destruct (lex_step cfg_fixed src (blen p)) as [| |n|ps t n|ps t n|ep m ps t n|ep m n];
      cbn [step_ok] in H; try contradiction.
    + destruct H as (t & Ht). now apply (K t).
    + destruct H as (Ht & W). apply (K t); [exact Ht|]. apply Forall_app. split; [assumption|]. now constructor.
    + destruct H as (Ht & W & Sp). apply cons_tok_wf; [now apply (T ps t n)|]. apply (K t); [exact Ht|constructor].
    + destruct H as (Ht & W & Sp & We). apply cons_err_wf; [exact We|].
      apply cons_tok_wf; [now apply (T ps t n)|]. apply (K t); [exact Ht|constructor].
    + destruct H as ((t & Ht) & We). apply cons_err_wf; [exact We|]. now apply (K t).
Qed.

Lemma shebang_skip_boundary : forall src, exists p s, src = p ++ s /\ shebang_skip src = blen p.
Proof.
  intros [|c src]; [now exists [], []|]. cbn [shebang_skip].
  destruct (c =? HASH); [|now exists [], (c :: src)].
  destruct (find_lf (c :: src)) as [i|] eqn:Ef.
  - destruct (find_lf_some _ _ Ef) as (m & r & -> & Hb & _). now exists m, (LF :: r).
  - exists (c :: src), []. now rewrite app_nil_r.
Qed.

Lemma lex_ok : forall src, result_wf src (lex src).
Proof.
  intro src. unfold lex, lex_with.
  destruct (shebang_skip_boundary src) as (p & s & E & ->).
  apply (lex_loop_ok src _ p s []); [exact E| |constructor].
  rewrite E, app_length. lia.
Qed.

Lemma lex_total_lemma : forall src, exists ts tr es, lex src = LexOk ts tr es.
Proof.
  intro src. pose proof (lex_ok src) as H. destruct (lex src) as [ts tr es| |]; cbn in H; try contradiction.
  now exists ts, tr, es.
Qed.

Lemma lex_no_panic_lemma : forall src, lex src <> LexPanic /\ lex src <> LexOutOfFuel.
Proof.
  intro src. destruct (lex_total_lemma src) as (ts & tr & es & ->). split; discriminate.
Qed.

Lemma lex_wf_lemma : forall src ts tr es, lex src = LexOk ts tr es ->
  Forall (token_wf src) ts /\ Forall (comment_wf src) tr /\ Forall (error_wf src) es.
Proof. intros src ts tr es H. pose proof (lex_ok src) as W. rewrite H in W. exact W. Qed.

Definition all_positions (ts : list token) (tr : list comment) (es : list lex_error) : list pos :=
  map tpos ts ++ flat_map (fun t => map fst (tcomments t)) ts ++ map fst tr ++ map epos es.

Definition pos_consistent (src : list N) (p : pos) : Prop :=
  start_offset p <= end_offset p /\ end_offset p <= blen src /\
  boundary src (start_offset p) /\ boundary src (end_offset p) /\
  line_col src (start_offset p) (line p) (column p) /\
  line_col src (end_offset p) (end_line p) (end_column p).

Lemma pos_wf_consistent : forall src p, pos_wf src p <-> pos_consistent src p.
Proof.
  intros src p. unfold pos_wf, pos_consistent. split.
  - intros (A & B & C & D). repeat split; try assumption.
    + now apply line_col_boundary in C.
    + now apply line_col_boundary in D.
  - intros (A & B & _ & _ & C & D). now repeat split.
Qed.

Lemma lex_positions_wf_lemma : forall src ts tr es, lex src = LexOk ts tr es ->
  forall p, In p (all_positions ts tr es) -> pos_consistent src p.
Proof.
  intros src ts tr es H p Hin. destruct (lex_wf_lemma _ _ _ _ H) as (T & C & Er).
  apply pos_wf_consistent. unfold all_positions in Hin.
  rewrite Forall_forall in T, C, Er.
  apply in_app_or in Hin as [Hin|Hin].
  - apply in_map_iff in Hin as (t & <- & Ht). now apply T.
  - apply in_app_or in Hin as [Hin|Hin].
    + apply in_flat_map in Hin as (t & Ht & Hc). apply in_map_iff in Hc as (c & <- & Hc).
      destruct (T t Ht) as (_ & _ & _ & F). rewrite Forall_forall in F. now apply F.
    + apply in_app_or in Hin as [Hin|Hin].
      * apply in_map_iff in Hin as (c & <- & Hc). now apply C.
      * apply in_map_iff in Hin as (e & <- & He). now apply Er.
Qed.

Lemma lex_token_text_lemma : forall src ts tr es, lex src = LexOk ts tr es ->
  forall t, In t ts ->
    ttext t <> [] /\ slice src (start_offset (tpos t)) (end_offset (tpos t)) = Some (ttext t).
Proof.
  intros src ts tr es H t Ht. destruct (lex_wf_lemma _ _ _ _ H) as (T & _ & _).
  rewrite Forall_forall in T. destruct (T t Ht) as (_ & S & Ne & _). now split.
Qed.

Lemma merge_consistent_lemma : forall src a b,
  pos_consistent src a -> pos_consistent src b -> pos_consistent src (merge a b).
Proof.
  intros src a b A B. apply pos_wf_consistent. apply merge_wf_lemma; now apply pos_wf_consistent.
Qed.

Lemma not_whitespace : forall c, 33 <= c <= 126 -> is_whitespace c = false.
Proof.
  intros c H. unfold is_whitespace.
  assert (G : forall k, 126 < k -> (c =? k) = false) by (intros k Hk; apply N.eqb_neq; lia).
  rewrite (proj2 (N.leb_gt c 13)), (proj2 (N.eqb_neq c 32)), (proj2 (N.leb_gt 8192 c)) by lia.
  rewrite !G by reflexivity. now rewrite andb_false_r.
Qed.

Lemma class_miss : forall (f : N -> bool) l c, forallb (fun x => negb (f x)) l = true -> f c = true ->
  existsb (N.eqb c) l = false.
Proof.
  intros f l c T Hc. destruct (existsb (N.eqb c) l) eqn:E; [|reflexivity].
  apply existsb_exists in E as (x & Hx & Ex). apply N.eqb_eq in Ex. subst x.
  rewrite forallb_forall in T. apply T in Hx. now rewrite Hc in Hx.
Qed.

Lemma two_char_head_miss : forall c s, existsb (N.eqb c) (map fst two_char_tokens) = false ->
  existsb (fun ab => starts_with2 (fst ab) (snd ab) (c :: s)) two_char_tokens = false.
Proof.
  intros c s. induction two_char_tokens as [|[a b] tbl IH]; intro H; [reflexivity|].
  cbn [existsb map fst snd] in *. apply orb_false_elim in H as [Ha H]. apply N.eqb_neq in Ha.
  rewrite starts_with2_head by exact Ha. now apply IH.
Qed.

Lemma float_re_head_none : forall c s, c <> MINUS -> is_digit c = false -> float_re (c :: s) = None.
Proof.
  intros c s Hm Hd. unfold float_re, opt_minus. destruct (N.eqb_spec c MINUS); [contradiction|].
  cbn [scan_digits]. now rewrite Hd.
Qed.

Lemma integer_re_head_none : forall c s, c <> MINUS -> is_digit c = false -> integer_re (c :: s) = None.
Proof.
  intros c s Hm Hd. unfold integer_re, opt_minus. destruct (N.eqb_spec c MINUS); [contradiction|].
  cbn [scan_digits]. now rewrite Hd.
Qed.

Lemma string_re_head_none : forall b c s, c <> QUOTE -> string_re b (c :: s) = None.
Proof. intros b c s H. cbn [string_re]. destruct (N.eqb_spec c QUOTE); [contradiction|reflexivity]. Qed.

Definition escape_char (c : N) : list N :=
  if c =? QUOTE then [BACKSLASH; QUOTE] else if c =? LF then [BACKSLASH; 110]
  else if c =? BACKSLASH then [BACKSLASH; BACKSLASH] else [c].

Lemma escape_body_cons : forall c s, escape_body (c :: s) = escape_char c ++ escape_body s.
Proof.
  intros c s. unfold escape_char. cbn [escape_body].
  destruct (c =? QUOTE); [reflexivity|]. destruct (c =? LF); [reflexivity|]. now destruct (c =? BACKSLASH).
Qed.

Lemma escape_char_spec : forall c x,
  string_body true (escape_char c ++ x) = escape_char c ++ string_body true x /\
  unescape_chars (escape_char c ++ x) = (let (t, e) := unescape_chars x in (c :: t, e)) /\
  count_lf (escape_char c) = 0.
Proof.
  intros c x. unfold escape_char.
  destruct (N.eqb_spec c QUOTE) as [->|Nq]; [now repeat split|].
  destruct (N.eqb_spec c LF) as [->|Nl]; [now repeat split|].
  destruct (N.eqb_spec c BACKSLASH) as [->|Nb]; [now repeat split|].
  apply N.eqb_neq in Nq, Nb. cbn [app string_body unescape_chars]. rewrite Nq, Nb.
  repeat split. now apply count_lf_single.
Qed.

Lemma string_body_escape : forall s rest,
  string_body true (escape_body s ++ QUOTE :: rest) = escape_body s ++ [QUOTE].
Proof.
  induction s as [|c s IH]; intro rest; [reflexivity|].
  rewrite escape_body_cons, <- !app_assoc, (proj1 (escape_char_spec c _)). now rewrite IH.
Qed.

Lemma string_re_escape : forall s rest, string_re true (escape s ++ rest) = Some (escape s).
Proof.
  intros s rest. unfold escape. cbn [app string_re]. cbn.
  rewrite <- app_assoc. cbn [app]. now rewrite string_body_escape.
Qed.

Lemma unescape_chars_escape : forall s, unescape_chars (escape_body s) = (s, 0).
Proof.
  induction s as [|c s IH]; [reflexivity|].
  rewrite escape_body_cons, (proj1 (proj2 (escape_char_spec c _))). now rewrite IH.
Qed.

Lemma ends_with_quote_snoc : forall l, ends_with_quote (l ++ [QUOTE]) = true.
Proof. intro l. unfold ends_with_quote. rewrite rev_app_distr. reflexivity. Qed.

Lemma strip_quotes_escape : forall s, strip_quotes (escape s) = Some (escape_body s).
Proof.
  intro s. unfold strip_quotes, escape.
  change (QUOTE :: escape_body s ++ [QUOTE]) with ([QUOTE] ++ (escape_body s ++ [QUOTE])).
  change 1 with (blen [QUOTE]). rewrite drop_bytes_app.
  rewrite ends_with_quote_snoc. now rewrite removelast_last.
Qed.

Lemma unescape_escape : forall s, unescape (escape s) = Some (s, 0).
Proof. intro s. unfold unescape. rewrite strip_quotes_escape. now rewrite unescape_chars_escape. Qed.

Lemma escape_count_lf : forall s, count_lf (escape_body s) = 0.
Proof.
  induction s as [|c s IH]; [reflexivity|].
  rewrite escape_body_cons, count_lf_app, (proj2 (proj2 (escape_char_spec c []))). exact IH.
Qed.

Lemma kstep_escape : forall s rest, kstep (escape s ++ rest) = Some (KToken, escape s).
Proof.
  intros s rest. unfold kstep. pose proof (string_re_escape s rest) as Hre.
  change (escape s ++ rest) with (QUOTE :: (escape_body s ++ [QUOTE]) ++ rest) in *.
  (* the tests on the first character alone compute *)
  rewrite starts_with2_head, two_char_head_miss, Hre by (discriminate || reflexivity).
  now rewrite (ends_with_quote_snoc (QUOTE :: escape_body s) : ends_with_quote (escape s) = true).
Qed.

Lemma lex_step_escape_eq : forall p s rest,
  lex_step cfg_fixed (p ++ escape s ++ rest) (blen p) =
  SToken (text_pos p (escape s)) (escape s) (blen (escape s)).
Proof. intros p s rest. exact (lex_step_of_kstep p _ _ _ (kstep_escape s rest)). Qed.

Lemma lex_step_escape : forall p s rest,
  exists ps, lex_step cfg_fixed (p ++ escape s ++ rest) (blen p) = SToken ps (escape s) (blen (escape s))
             /\ spans ps (blen p) (blen (escape s)).
Proof. intros p s rest. rewrite lex_step_escape_eq. eexists. split; [reflexivity|now split]. Qed.

Lemma lex_escape : forall s, exists ps,
  lex (escape s) = LexOk [mktoken ps (escape s) []] [] [] /\ spans ps 0 (blen (escape s)).
Proof.
  intro s. exists (text_pos [] (escape s)). split; [|now split].
  pose proof (lex_step_escape_eq [] s []) as E. pose proof (blen_lt_app [] (escape s ++ [])) as Hlt.
  rewrite app_nil_r in E, Hlt. cbn [app] in E, Hlt.
  unfold lex, lex_with. change (shebang_skip (escape s)) with 0. change 0 with (blen []).
  assert (L : exists k, length (escape s) = S k) by (unfold escape; cbn [length]; eauto).
  destruct L as [k ->]. cbn [lex_loop]. rewrite Hlt, E by discriminate.
  change (blen [] + blen (escape s)) with (blen (escape s)). now rewrite N.ltb_irrefl.
Qed.

(* without fix_a, `let x = 1 é`: the unrecognised-character branch slices `&s[0..1]` *)
Lemma orig_nonascii_panics :
  lex_with cfg_orig [108; 101; 116; 32; 120; 32; 61; 32; 49; 32; 233] = LexPanic.
Proof. vm_compute. reflexivity. Qed.

(* without fix_a, `1<U+00A0>2`: whitespace advances one byte into the no-break space *)
Lemma orig_nbsp_panics : lex_with cfg_orig [49; 160; 50] = LexPanic.
Proof. vm_compute. reflexivity. Qed.

(* without fix_b: the printed form of the string `a\` followed by `, "b"]` *)
Definition str_a_backslash : list N := [97; 92].
Definition rest_comma_b : list N := [44; 32; 34; 98; 34; 93].
Lemma orig_string_re_refuted :
  string_re false (escape str_a_backslash ++ rest_comma_b) <> Some (escape str_a_backslash).
Proof. vm_compute. discriminate. Qed.

(* without fix_c, `"a\nb"`: end line = start line, end column = column + length *)
Definition multi_line_string : list N := [34; 97; 10; 98; 34].
Lemma orig_multiline_refuted :
  exists t, lex_with cfg_orig multi_line_string = LexOk [t] [] [] /\ ~ pos_wf multi_line_string (tpos t).
Proof.
  eexists. split; [vm_compute; reflexivity|].
  intros (_ & _ & _ & H). cbn [tpos end_offset end_line end_column] in H.
  destruct (line_col_fun _ _ _ _ _ _ H (line_col_app multi_line_string [])) as [E _]. discriminate.
Qed.

(* `let x = 1 é<NBSP>"a<LF>€"` : non-ASCII junk, multi-byte whitespace, multi-line string *)
Definition sample_src : list N :=
  [108; 101; 116; 32; 120; 32; 61; 32; 49; 32; 233; 160; 34; 97; 10; 8364; 34].

Lemma sample_lex :
  exists ts es, lex sample_src = LexOk ts [] es /\
    tok_texts ts = [[108; 101; 116]; [120]; [61]; [49]; [34; 97; 10; 8364; 34]] /\
    map (fun t => pos_fields (tpos t)) ts =
      [[0; 3; 0; 0; 0; 3]; [4; 5; 0; 0; 4; 5]; [6; 7; 0; 0; 6; 7]; [8; 9; 0; 0; 8; 9]; [14; 21; 0; 1; 14; 4]] /\
    map (fun e => pos_fields (epos e)) es = [[10; 12; 0; 0; 10; 12]].
Proof. eexists _, _. split; [vm_compute; reflexivity|]. repeat split. Qed.

(* `["a\\", "b"]` *)
Lemma list_of_strings_lex :
  exists ts, lex [91; 34; 97; 92; 92; 34; 44; 32; 34; 98; 34; 93] = LexOk ts [] [] /\
    tok_texts ts = [[91]; [34; 97; 92; 92; 34]; [44]; [34; 98; 34]; [93]].
Proof. eexists. split; [vm_compute; reflexivity|]. reflexivity. Qed.

Lemma merge_example :
  merge (mkpos 0 3 0 0 0 3) (mkpos 14 21 0 1 14 4) = mkpos 0 21 0 1 0 4.
Proof. reflexivity. Qed.
