(* Proofs about session-level operations: interrupts are transparent (C08),
   :abort returns to a clean toplevel (C10). *)
From Coq Require Import NArith List Lia.
From Garden Require Import Machine MachineSession MachineSessionLive.
Import ListNotations.
Open Scope nat_scope.

(* For any interrupt schedule -- any number of Ctrl-C presses at any loop
   iterations, each answered by :resume -- the run prints the same output and
   ends with the same value, the same error, or the same pending state as an
   uninterrupted run that simply takes fewer loop iterations. *)
Theorem interrupted_run_equiv p : forall sched s1 s2,
  same_work s1 s2 -> interrupted s2 = false ->
  exists n, n <= length sched /\ same_result (run_int p sched s1) (run p n s2).
Proof.
  intros sched s1 s2 W I2.
  destruct (interrupted_run_progress p sched s1 s2 W I2) as (n & Hn & _ & R). eauto.
Qed.

Lemma interrupt_is_transparent p s f rest es e t :
  stack s = f :: rest -> todo f = (es, e) :: t -> interrupted s = true ->
  exists s', step p s = Failed {| ekind_of := KInterrupted; epos_of := epos e |} s' /\
             stack s' = stack s /\ out s' = out s /\ interrupted s' = false /\ ticks s' = (ticks s + 1)%N.
Proof.
  intros ES ET EI. unfold step. rewrite ES, ET, EI. eexists. split; [reflexivity|]. cbn. auto.
Qed.

Lemma truncate_last_length {A} (l : list A) : length (truncate_last l) <= 1.
Proof. unfold truncate_last. destruct (rev l); cbn; lia. Qed.

Lemma truncate_last_spec {A} (l : list A) x : l <> [] -> truncate_last l = [last l x].
Proof.
  intros NE. unfold truncate_last.
  destruct l as [|a l] using rev_ind; [contradiction|].
  rewrite rev_app_distr. cbn. now rewrite last_last.
Qed.

Theorem abort_clean s f :
  last_frame (stack s) = Some f ->
  exists f0, stack (abort s) = [f0] /\ todo f0 = [] /\ nextb f0 = [] /\
             vals f0 = truncate_last (vals f) /\ blocks f0 = truncate_last (blocks f) /\
             length (vals f0) <= 1 /\ length (blocks f0) <= 1 /\
             out (abort s) = out s.
Proof.
  intros L. unfold abort. rewrite L. eexists. split; [reflexivity|]. cbn.
  repeat split; auto using truncate_last_length.
Qed.

(* No hypothesis on the interrupt flag: `eval` only looks at it when there is an
   expression to evaluate, and after :abort there is none. *)
Lemma abort_resume_done p s f v :
  last_frame (stack s) = Some f -> truncate_last (vals f) = [v] ->
  exists s', step p (abort s) = Done v s' /\ out s' = out s.
Proof.
  intros L V. unfold abort, step. rewrite L. cbn. rewrite V. eexists. split; reflexivity.
Qed.

Theorem abort_then_resume p s f v :
  last_frame (stack s) = Some f -> truncate_last (vals f) = [v] ->
  interrupted s = false ->
  exists s', step p (abort s) = Done v s' /\ out s' = out s.
Proof. intros L V _. exact (abort_resume_done p s f v L V). Qed.

(* the toplevel variables survive: the outermost block of the toplevel frame is kept as it is *)
Theorem abort_keeps_toplevel_scope s f b :
  last_frame (stack s) = Some f -> blocks f <> [] ->
  exists f0, stack (abort s) = [f0] /\ blocks f0 = [last (blocks f) b].
Proof.
  intros L NE. unfold abort. rewrite L. eexists. split; [reflexivity|]. cbn.
  now apply truncate_last_spec.
Qed.

(* nothing of the aborted evaluation remains: the stack after :abort is a
   function of the toplevel frame's outermost block, first value and `uses` only
   (ticks, output and limits are kept from the state: see `abort`) *)
Theorem abort_forgets_evaluation s1 s2 f1 f2 :
  last_frame (stack s1) = Some f1 -> last_frame (stack s2) = Some f2 ->
  truncate_last (vals f1) = truncate_last (vals f2) ->
  truncate_last (blocks f1) = truncate_last (blocks f2) ->
  uses f1 = uses f2 ->
  stack (abort s1) = stack (abort s2).
Proof.
  intros L1 L2 V B U. unfold abort. rewrite L1, L2. cbn. unfold abort_frame. now rewrite V, B, U.
Qed.
