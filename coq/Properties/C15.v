(* C15 -- Inferred types of lists and branches cover every element.
   Statements only: the model is Types.v, the proofs are in TypesProps.v (closed examples
   are evaluated here).

   `unify` / `unify_all` mirror src/checks/type_checker.rs; `site_*` mirror what the call
   sites do with the result (list and dict literals, if/else, try/catch, match arms). *)
From Coq Require Import List Bool Arith NArith String.
From Garden Require Import Types TypesProps.
Import ListNotations.

(* The combined type is above both inputs -- for ALL types (no hypothesis is needed). *)
Theorem unify_upper : forall a b c,
  unify a b = Some c -> is_subtype a c = true /\ is_subtype b c = true.
Proof. exact unify_upper_lemma. Qed.
Print Assumptions unify_upper.

(* Combining equal types returns that same type. *)
Theorem unify_idem : forall a, unify a a = Some a.
Proof. exact unify_idem_lemma. Qed.
Print Assumptions unify_idem.

Theorem unify_all_same : forall t n, unify_all (repeat t (S n)) = Some t.
Proof. exact unify_all_same_lemma. Qed.
Print Assumptions unify_all_same.

(* unify stays inside the well-formed, error-free types. *)
Theorem unify_preserves_ok : forall (Sg : sig) a b c,
  ty_ok Sg a = true -> ty_ok Sg b = true -> unify a b = Some c -> ty_ok Sg c = true.
Proof. exact unify_ok. Qed.
Print Assumptions unify_preserves_ok.

(* Every element of the list is below the combined type (uses transitivity, hence the
   well-formedness / error-freedom hypothesis on the elements). *)
Theorem unify_all_upper : forall (Sg : sig) ts c,
  forallb (ty_ok Sg) ts = true -> unify_all ts = Some c ->
  Forall (fun t => is_subtype t c = true) ts.
Proof. exact unify_all_upper_lemma. Qed.
Print Assumptions unify_all_upper.

Example unify_example :
  unify (t_list no_value) (t_list t_int) = Some (t_list t_int) /\
  unify (TUser KEnum n_Result [t_int; no_value]) (TUser KEnum n_Result [no_value; t_string])
    = Some (TUser KEnum n_Result [t_int; t_string]) /\
  unify t_int TAny = Some TAny /\
  unify t_int t_string = None /\
  unify (TTuple [t_int; no_value]) (TTuple [no_value; t_int]) = None /\
  unify_all [no_value; t_list no_value; t_list t_int; t_list no_value] = Some (t_list t_int) /\
  forallb (ty_ok prelude_sig) [no_value; t_list no_value; t_list t_int; t_list no_value] = true.
Proof. vm_compute. repeat split. Qed.
Print Assumptions unify_example.

(* ---- the call sites ---------------------------------------------------------------- *)
(* List / dict literals: the element type is unify_all's answer or, with a diagnostic, Any. *)
Theorem site_list_upper : forall (Sg : sig) items, forallb (ty_ok Sg) items = true ->
  exists e, site_list items = t_list e /\ Forall (fun t => is_subtype t e = true) items.
Proof. exact site_list_upper_lemma. Qed.
Print Assumptions site_list_upper.

Theorem site_dict_upper : forall (Sg : sig) values, forallb (ty_ok Sg) values = true ->
  exists e, site_dict values = t_dict e /\ Forall (fun t => is_subtype t e = true) values.
Proof. exact site_dict_upper_lemma. Qed.
Print Assumptions site_dict_upper.

(* List literal checked against List<T>: falls back to Error, which `is_subtype` puts above everything. *)
Theorem site_check_list_upper : forall (Sg : sig) items, forallb (ty_ok Sg) items = true ->
  exists e, site_check_list items = t_list e /\ Forall (fun t => is_subtype t e = true) items.
Proof. exact site_check_list_upper_lemma. Qed.
Print Assumptions site_check_list_upper.

(* if/else and try/catch. *)
Theorem site_branches_upper : forall t1 t2,
  is_subtype t1 (site_branches t1 t2) = true /\ is_subtype t2 (site_branches t1 t2) = true.
Proof. exact site_branches_upper_lemma. Qed.
Print Assumptions site_branches_upper.

(* Their Error fall-back comes with a diagnostic; an error-free result is unify's own. *)
Theorem site_branches_error_free : forall t1 t2,
  ty_no_err (site_branches t1 t2) = true -> unify t1 t2 = Some (site_branches t1 t2).
Proof. exact site_branches_error_free_lemma. Qed.
Print Assumptions site_branches_error_free.

(* match arms; `expected` is Any when inferring.  The second hypothesis says that
   check_block reported no mismatch between an arm and the expected type. *)
Theorem site_match_upper : forall (Sg : sig) expected cases,
  forallb (ty_ok Sg) cases = true ->
  Forall (fun t => is_subtype t expected = true) cases ->
  Forall (fun t => is_subtype t (site_match expected cases) = true) cases.
Proof. exact site_match_upper_lemma. Qed.
Print Assumptions site_match_upper.

(* The two fall-back types are upper bounds of anything. *)
Theorem fallbacks_are_upper_bounds : forall a g, is_subtype a TAny = true /\ is_subtype a (TErr g) = true.
Proof. intros a g. exact (conj (sub_any_r a) (sub_err_r a g)). Qed.
Print Assumptions fallbacks_are_upper_bounds.

Example site_example :
  site_list [t_int; t_string] = t_list TAny /\
  site_list [t_list no_value; t_list t_int] = t_list (t_list t_int) /\
  site_branches (t_list no_value) (t_list t_int) = t_list t_int /\
  site_branches t_int t_string = TErr 1 /\
  site_match TAny [TUser KEnum n_Option [no_value]; TUser KEnum n_Option [t_int]] = TUser KEnum n_Option [t_int] /\
  site_match (TUser KEnum n_Option [t_int]) [TUser KEnum n_Option [no_value]; TUser KEnum n_Option [no_value]]
    = TUser KEnum n_Option [no_value].
Proof. vm_compute. repeat split. Qed.
Print Assumptions site_example.
