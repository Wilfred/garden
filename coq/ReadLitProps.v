(* Printing a value of the literal fragment (ReadLit.v), lexing the text and
   reading the tokens gives the value back.

   The two halves meet in `toks_of v ts`: ts has the token texts of the printed
   v (positions matter only where a constructor name must touch its `(`).  The
   lexer produces such tokens from `show v` in any context that cannot extend
   the last token (`lex_shows`); the reader turns any such tokens back into v
   (`reads`). *)
From Coq Require Import ZArith NArith Bool List Lia.
From Garden Require Import Base.Utf Base.UtfProps Lex EditAlgebra LexProps ReadLit.
Import ListNotations.
Open Scope N_scope.

Lemma is_digit_range : forall c, is_digit c = true <-> 48 <= c <= 57.
Proof.
  intro c. unfold is_digit. rewrite andb_true_iff, !N.leb_le. tauto.
Qed.

Lemma is_digit_add : forall d, d < 10 -> is_digit (48 + d) = true.
Proof. intros d H. apply is_digit_range. lia. Qed.

Lemma dec_value_snoc : forall a acc d,
  dec_value acc (a ++ [d]) =
  match dec_value acc a with
  | Some x => if is_digit d then Some (x * 10 + (d - 48)) else None
  | None => None
  end.
Proof.
  induction a as [|c a IH]; intros acc d; cbn [app dec_value].
  - destruct (is_digit d); reflexivity.
  - destruct (is_digit c); [apply IH|reflexivity].
Qed.

Definition all_digits (ds : list N) : Prop := Forall (fun c => is_digit c = true) ds.

Lemma digits_fuel_spec : forall fuel n, n < 2 ^ N.of_nat fuel ->
  all_digits (digits_fuel fuel n) /\ dec_value 0 (digits_fuel fuel n) = Some n.
Proof.
  induction fuel as [|f IH]; intros n H.
  - cbn in H. assert (n = 0) by lia. subst. split; [constructor|reflexivity].
  - cbn [digits_fuel]. destruct (N.ltb_spec n 10) as [L|L].
    + split.
      * constructor; [now apply is_digit_add|constructor].
      * cbn [dec_value]. rewrite is_digit_add by assumption. f_equal. lia.
    + assert (Hq : n / 10 < 2 ^ N.of_nat f).
      { apply N.div_lt_upper_bound; [lia|].
        rewrite Nat2N.inj_succ, N.pow_succ_r' in H. lia. }
      destruct (IH _ Hq) as [A V]. split.
      * apply Forall_app. split; [exact A|].
        constructor; [|constructor]. apply is_digit_add. apply N.mod_lt. lia.
      * rewrite dec_value_snoc, V. rewrite is_digit_add by (apply N.mod_lt; lia).
        f_equal. rewrite (N.add_comm 48), N.add_sub.
        rewrite N.mul_comm. symmetry. apply N.div_mod'.
Qed.

Lemma digits_fuel_nonempty : forall f n, digits_fuel (S f) n <> [].
Proof.
  intros f n. cbn [digits_fuel]. destruct (n <? 10); [discriminate|].
  destruct (digits_fuel f (n / 10)); discriminate.
Qed.

Lemma show_N_spec : forall n,
  all_digits (show_N n) /\ dec_value 0 (show_N n) = Some n /\ show_N n <> [].
Proof.
  intro n. unfold show_N.
  assert (H : n < 2 ^ N.of_nat (S (N.to_nat (N.size n)))).
  { rewrite Nat2N.inj_succ, N2Nat.id, N.pow_succ_r'. pose proof (N.size_gt n). lia. }
  destruct (digits_fuel_spec _ _ H) as [A V]. split; [exact A|]. split; [exact V|].
  apply digits_fuel_nonempty.
Qed.

Lemma strip_underscores_digits : forall ds, all_digits ds -> strip_underscores ds = ds.
Proof.
  intros ds F. induction F as [|c ds Hc F IH]; [reflexivity|]. unfold strip_underscores. cbn [filter].
  apply is_digit_range in Hc. rewrite (proj2 (N.eqb_neq c UNDERSCORE)) by (unfold UNDERSCORE; lia).
  cbn [negb]. f_equal. exact IH.
Qed.

Lemma show_int_shape : forall z, exists sg d ds,
  show_int z = sg ++ d :: ds /\ (sg = [] \/ sg = [MINUS]) /\ is_digit d = true /\ all_digits ds.
Proof.
  intro z. unfold show_int. destruct (z <? 0)%Z.
  - destruct (show_N_spec (Z.to_N (- z))) as (A & _ & Ne).
    destruct (show_N (Z.to_N (- z))) as [|d ds]; [congruence|]. inversion A; subst.
    exists [MINUS], d, ds. repeat split; auto.
  - destruct (show_N_spec (Z.to_N z)) as (A & _ & Ne).
    destruct (show_N (Z.to_N z)) as [|d ds]; [congruence|]. inversion A; subst.
    exists [], d, ds. repeat split; auto.
Qed.

Lemma parse_show_int : forall z, in_i64 z = true -> parse_i64 (show_int z) = Some z.
Proof.
  intros z H. unfold in_i64 in H. apply andb_prop in H as [Hlo Hhi].
  unfold parse_i64, show_int. destruct (Z.ltb_spec z 0) as [Neg|Pos].
  - destruct (show_N_spec (Z.to_N (- z))) as (A & V & Ne).
    change (strip_underscores (MINUS :: ?l)) with (MINUS :: strip_underscores l).
    rewrite strip_underscores_digits, N.eqb_refl by exact A.
    destruct (show_N (Z.to_N (- z))) as [|d ds] eqn:E; [congruence|]. rewrite V.
    rewrite Z2N.id by lia. rewrite Z.opp_involutive. now rewrite Hlo.
  - destruct (show_N_spec (Z.to_N z)) as (A & V & Ne).
    rewrite strip_underscores_digits by exact A.
    destruct (show_N (Z.to_N z)) as [|d ds] eqn:E; [congruence|].
    inversion A as [|? ? Hd Hds]; subst. apply is_digit_range in Hd.
    rewrite (proj2 (N.eqb_neq d MINUS)), (proj2 (N.eqb_neq d 43)) by (unfold MINUS; lia).
    rewrite V. rewrite Z2N.id by lia. now rewrite Hhi.
Qed.

Section Runs.
  Variable src : list N.

  (* The loop of lex_between without fuel, started at offset o with preceding_comments pc;
     tokens and whitespace only, which is all that a printed value contains. *)
  Inductive runs : N -> list comment -> lex_result -> Prop :=
  | R_end : forall o pc, o <? blen src = false -> runs o pc (LexOk [] pc [])
  | R_skip : forall o pc n res, o <? blen src = true -> lex_step cfg_fixed src o = SSkip n ->
      runs (o + n) pc res -> runs o pc res
  | R_token : forall o pc p t n res, o <? blen src = true -> lex_step cfg_fixed src o = SToken p t n ->
      runs (o + n) [] res -> runs o pc (cons_tok (mktoken p t pc) res).

  Lemma runs_loop : forall o pc res, runs o pc res -> forall fuel,
    lex_loop cfg_fixed fuel src (blen src) o pc <> LexOutOfFuel ->
    lex_loop cfg_fixed fuel src (blen src) o pc = res.
  Proof.
    intros o pc res R. induction R as [o pc Lt|o pc n res Lt St R IH|o pc p t n res Lt St R IH];
      intros [|f] Ne; try (now contradiction Ne); cbn [lex_loop] in *; rewrite Lt in *.
    - reflexivity.
    - rewrite St in *. now apply IH.
    - rewrite St in *. rewrite IH; [reflexivity|]. intro K. now rewrite K in Ne.
  Qed.
End Runs.

Lemma lex_by_run : forall src res, shebang_skip src = 0 -> runs src 0 [] res -> lex src = res.
Proof.
  intros src res Sh R. destruct (lex_total_lemma src) as (ts & tr & es & E).
  unfold lex, lex_with in *. rewrite Sh in *. apply runs_loop; [exact R|]. now rewrite E.
Qed.

(* lexing `piece`, which stands between p and r, yields toks and goes on after it *)
Definition lexes_to (p piece r : list N) (toks : list token) : Prop :=
  forall src res, src = p ++ piece ++ r ->
  runs src (blen p + blen piece) [] res -> runs src (blen p) [] (fold_right cons_tok res toks).

Lemma lexes_to_app : forall p a b r ta tb,
  lexes_to p a (b ++ r) ta -> lexes_to (p ++ a) b r tb -> lexes_to p (a ++ b) r (ta ++ tb).
Proof.
  intros p a b r ta tb Ha Hb src res E R. rewrite fold_right_app.
  apply Ha; [now rewrite E, <- app_assoc|]. rewrite <- blen_app.
  apply Hb; [now rewrite E, <- !app_assoc|]. now rewrite blen_app, <- N.add_assoc, <- blen_app.
Qed.

Lemma lexes_to_nil : forall p r, lexes_to p [] r [].
Proof. intros p r src res E R. now rewrite N.add_0_r in R. Qed.

Definition tok (p m : list N) : token := mktoken (text_pos p m) m [].

Lemma lexes_to_token : forall p m r, kstep (m ++ r) = Some (KToken, m) -> lexes_to p m r [tok p m].
Proof.
  intros p m r K src res -> R. destruct (kstep_prefix _ _ _ K) as (_ & _ & Hm).
  apply (R_token _ _ _ _ _ (blen m)); [apply blen_lt_app; now destruct m|exact (lex_step_of_kstep p _ _ _ K)|exact R].
Qed.

Lemma lexes_to_space : forall p r, lexes_to p [SPACE] r [].
Proof.
  intros p r src res -> R. apply (R_skip _ _ _ 1); [now apply blen_lt_app| |exact R].
  exact (lex_step_of_kstep p _ _ _ (kstep_ws SPACE r eq_refl)).
Qed.

(* what may follow a printed value: nothing, or `,` `)` `]` *)
Definition closer (c : N) : bool := (c =? COMMA) || (c =? RPAREN) || (c =? RBRACKET).
Definition follow_ok (r : list N) : Prop := match r with [] => True | c :: _ => closer c = true end.

Lemma closer_cases : forall c, closer c = true -> c = COMMA \/ c = RPAREN \/ c = RBRACKET.
Proof. intros c H. unfold closer in H. rewrite !orb_true_iff, !N.eqb_eq in H. tauto. Qed.

Lemma follow_stops : forall (f : N -> bool) r, f COMMA = false -> f RPAREN = false -> f RBRACKET = false ->
  follow_ok r -> stops f r.
Proof.
  intros f [|c r] H1 H2 H3 H; [exact I|]. now destruct (closer_cases c H) as [->|[->| ->]].
Qed.

Lemma not_digit : forall c, ~ 48 <= c <= 57 -> is_digit c = false.
Proof. intros c H. apply not_true_iff_false. now rewrite is_digit_range. Qed.

Section IntPiece.
  Variables (sg : list N) (d : N) (ds r : list N).
  Hypothesis Hsg : sg = [] \/ sg = [MINUS].
  Hypothesis Hd : is_digit d = true.
  Hypothesis Hds : all_digits ds.
  Hypothesis Hr : follow_ok r.

  Lemma scan_digits_int : scan_digits (d :: ds ++ r) = Some (d :: ds, r).
  Proof.
    cbn [scan_digits]. rewrite Hd, span_app; [reflexivity| |now apply follow_stops].
    eapply Forall_impl; [|exact Hds]. intros c Hc. unfold is_digit_us. now rewrite Hc.
  Qed.

  Lemma opt_minus_int : opt_minus (sg ++ d :: ds ++ r) = (sg, d :: ds ++ r).
  Proof.
    destruct Hsg as [->| ->]; [|reflexivity]. cbn [app opt_minus]. apply is_digit_range in Hd.
    now rewrite (proj2 (N.eqb_neq d MINUS)) by (unfold MINUS; lia).
  Qed.

  Lemma float_re_int : float_re (sg ++ d :: ds ++ r) = None.
  Proof.
    unfold float_re. rewrite opt_minus_int, scan_digits_int.
    destruct r as [|c r']; [reflexivity|]. now destruct (closer_cases c Hr) as [->|[->| ->]].
  Qed.

  Lemma integer_re_int : integer_re (sg ++ d :: ds ++ r) = Some (sg ++ d :: ds).
  Proof. unfold integer_re. now rewrite opt_minus_int, scan_digits_int. Qed.

  Lemma kstep_int : kstep ((sg ++ d :: ds) ++ r) = Some (KToken, sg ++ d :: ds).
  Proof.
    unfold kstep. rewrite <- app_assoc.
    pose proof float_re_int as Hf. pose proof integer_re_int as Hi.
    pose proof Hd as Rg. apply is_digit_range in Rg.
    destruct Hsg as [->| ->]; cbn [app] in *.
    - rewrite starts_with2_head, not_whitespace by ((intros ->; discriminate Hd) || lia).
      rewrite two_char_head_miss by now apply (class_miss is_digit).
      now rewrite Hf, Hi.
    - rewrite starts_with2_head, not_whitespace by (unfold MINUS, SLASH; lia).
      (* `-` opens `-=` and `-.`, but a digit follows *)
      cbn [existsb two_char_tokens starts_with2 fst snd]. change (MINUS =? 45) with true.
      rewrite (proj2 (N.eqb_neq d 61)), (proj2 (N.eqb_neq d 46)) by lia. cbn [andb orb].
      now rewrite Hf, Hi.
  Qed.
End IntPiece.

Lemma sym_start_range : forall c, is_sym_start c = true -> 65 <= c <= 90 \/ c = 95 \/ 97 <= c <= 122.
Proof.
  intros c H. unfold is_sym_start, UNDERSCORE in H.
  apply orb_prop in H as [H|H]; [apply orb_prop in H as [H|H]; apply andb_prop in H as [A B]; apply N.leb_le in A, B|
                                 apply N.eqb_eq in H]; lia.
Qed.

Lemma kstep_symbol : forall c w r, is_sym_start c = true -> Forall (fun x => is_sym_char x = true) w ->
  stops is_sym_char r -> kstep ((c :: w) ++ r) = Some (KToken, c :: w).
Proof.
  intros c w r Hc Hw Hr. pose proof (sym_start_range c Hc) as Rg. unfold kstep. cbn [app].
  rewrite starts_with2_head, not_whitespace by ((intros ->; discriminate Hc) || lia).
  rewrite two_char_head_miss by now apply (class_miss is_sym_start).
  rewrite float_re_head_none, integer_re_head_none by ((intros ->; discriminate Hc) || (apply not_digit; lia)).
  rewrite (class_miss is_sym_start one_char_tokens), string_re_head_none
    by (reflexivity || assumption || (intros ->; discriminate Hc)).
  cbn [symbol_re]. now rewrite Hc, span_app.
Qed.

Lemma one_char_table_solo :
  forallb (fun c => existsb (N.eqb c) (map fst two_char_tokens) ||
                    negb ((c =? SLASH) || (c =? MINUS) || is_digit c || is_whitespace c)) one_char_tokens = true.
Proof. vm_compute. reflexivity. Qed.

Lemma kstep_one_char : forall c r, existsb (N.eqb c) one_char_tokens = true ->
  existsb (N.eqb c) (map fst two_char_tokens) = false -> kstep ([c] ++ r) = Some (KToken, [c]).
Proof.
  intros c r H1 H2.
  pose proof one_char_table_solo as T. rewrite forallb_forall in T.
  pose proof H1 as Hin. apply existsb_exists in Hin as (x & Hin & Ex). apply N.eqb_eq in Ex. subst x.
  apply T in Hin. rewrite H2 in Hin. apply negb_true_iff in Hin.
  apply orb_false_elim in Hin as [Hin Nw]. apply orb_false_elim in Hin as [Hin Nd].
  apply orb_false_elim in Hin as [Ns Nm]. apply N.eqb_neq in Ns, Nm.
  unfold kstep. cbn [app].
  rewrite starts_with2_head, Nw, two_char_head_miss, float_re_head_none, integer_re_head_none by assumption.
  now rewrite H1.
Qed.

Definition words : list (list N) := [T_TRUE; T_FALSE; T_UNIT; T_NONE; T_SOME; T_OK; T_ERR].

Lemma lexes_to_word : forall w p r, In w words -> stops is_sym_char r -> lexes_to p w r [tok p w].
Proof.
  intros w p r Hin Hr. cbn [In words] in Hin.
  repeat (destruct Hin as [<-|Hin];
          [apply lexes_to_token, kstep_symbol; [reflexivity|repeat constructor|exact Hr]|]).
  destruct Hin.
Qed.

Definition punct (c : N) : bool :=
  (c =? LPAREN) || (c =? RPAREN) || (c =? LBRACKET) || (c =? RBRACKET) || (c =? COMMA).

Lemma lexes_to_punct : forall c p r, punct c = true -> lexes_to p [c] r [tok p [c]].
Proof.
  intros c p r H. apply lexes_to_token.
  unfold punct in H. rewrite !orb_true_iff, !N.eqb_eq in H.
  destruct H as [[[[->| ->]| ->]| ->]| ->]; now apply kstep_one_char.
Qed.

Lemma lexes_to_int : forall z p r, follow_ok r -> lexes_to p (show_int z) r [tok p (show_int z)].
Proof.
  intros z p r Hr. destruct (show_int_shape z) as (sg & d & ds & -> & Hsg & Hd & Hds).
  now apply lexes_to_token, kstep_int.
Qed.

Lemma lexes_to_string : forall s p r, lexes_to p (escape s) r [tok p (escape s)].
Proof. intros s p r. apply lexes_to_token, kstep_escape. Qed.

(* The items between brackets, as join_items puts their texts together: every item but the
   last is followed by a `,`.  A sequence is `op items [,] cl`, the optional trailing comma
   being that of the 1-tuple. *)
Section Toks.
  Variable toks_of : lit -> list token -> Prop.

  Fixpoint toks_items (vs : list lit) (tl : list token) {struct vs} : Prop :=
    match vs with
    | [] => tl = []
    | v :: vs' => exists tv tl', tl = tv ++ tl' /\ toks_of v tv /\
        match vs' with
        | [] => tl' = []
        | _ => exists c tl'', tl' = c :: tl'' /\ ttext c = [COMMA] /\ toks_items vs' tl''
        end
    end.

  Definition toks_seq (op cl : N) (vs : list lit) (trail : list N) (ts : list token) : Prop :=
    exists t1 tl tc t2, ts = t1 :: tl ++ tc ++ [t2] /\ ttext t1 = [op] /\ toks_items vs tl /\
      map ttext tc = map (fun c => [c]) trail /\ ttext t2 = [cl].

  Definition toks_ctor (name : list N) (x : lit) (ts : list token) : Prop :=
    exists t1 t2 ts', ts = t1 :: t2 :: ts' /\ ttext t1 = name /\ touching t1 t2 = true /\
      toks_seq LPAREN RPAREN [x] [] (t2 :: ts').
End Toks.

Definition tuple_trail (vs : list lit) : list N := match vs with [_] => [COMMA] | _ => [] end.

Fixpoint toks_of (v : lit) (ts : list token) {struct v} : Prop :=
  match v with
  | LSome x => toks_ctor toks_of T_SOME x ts
  | LOk x => toks_ctor toks_of T_OK x ts
  | LErr x => toks_ctor toks_of T_ERR x ts
  | LList vs => toks_seq toks_of LBRACKET RBRACKET vs [] ts
  | LTuple vs => toks_seq toks_of LPAREN RPAREN vs (tuple_trail vs) ts
  | _ => exists t, ts = [t] /\ ttext t = show v
  end.

Section LitInd.
  Variable P : lit -> Prop.
  Hypothesis Hint : forall z, P (LInt z).
  Hypothesis Hstr : forall s, P (LStr s).
  Hypothesis Hbool : forall b, P (LBool b).
  Hypothesis Hunit : P LUnit.
  Hypothesis Hnone : P LNone.
  Hypothesis Hsome : forall x, P x -> P (LSome x).
  Hypothesis Hok : forall x, P x -> P (LOk x).
  Hypothesis Herr : forall x, P x -> P (LErr x).
  Hypothesis Hlist : forall vs, Forall P vs -> P (LList vs).
  Hypothesis Htuple : forall vs, Forall P vs -> P (LTuple vs).

  Fixpoint lit_ind' (v : lit) : P v :=
    let fix all (vs : list lit) : Forall P vs :=
      match vs with
      | [] => Forall_nil P
      | x :: r => Forall_cons x (lit_ind' x) (all r)
      end in
    match v with
    | LInt z => Hint z
    | LStr s => Hstr s
    | LBool b => Hbool b
    | LUnit => Hunit
    | LNone => Hnone
    | LSome x => Hsome x (lit_ind' x)
    | LOk x => Hok x (lit_ind' x)
    | LErr x => Herr x (lit_ind' x)
    | LList vs => Hlist vs (all vs)
    | LTuple vs => Htuple vs (all vs)
    end.
End LitInd.

Definition lex_shows (v : lit) : Prop :=
  forall p r, follow_ok r -> exists toks, toks_of v toks /\ lexes_to p (show v) r toks.

Lemma lex_shows_items : forall vs, Forall lex_shows vs -> forall p r, follow_ok r ->
  exists tl, toks_items toks_of vs tl /\ lexes_to p (join_items (map show vs)) r tl.
Proof.
  intros vs F. induction F as [|v vs Hv F IH]; intros p r Hr.
  - exists []. split; [reflexivity|apply lexes_to_nil].
  - destruct vs as [|v2 vs].
    + destruct (Hv p r Hr) as (tv & Tv & Lv). exists tv. cbn [map join_items]. rewrite app_nil_r.
      split; [|exact Lv]. exists tv, []. now rewrite app_nil_r.
    + change (join_items (map show (v :: v2 :: vs)))
        with (show v ++ COMMA :: SPACE :: join_items (map show (v2 :: vs))).
      destruct (Hv p (COMMA :: SPACE :: join_items (map show (v2 :: vs)) ++ r) eq_refl) as (tv & Tv & Lv).
      destruct (IH (((p ++ show v) ++ [COMMA]) ++ [SPACE]) r Hr) as (tl & Tl & Ll).
      set (c := tok (p ++ show v) [COMMA]). exists (tv ++ c :: tl). split.
      { exists tv, (c :: tl). split; [reflexivity|]. split; [exact Tv|]. now exists c, tl. }
      apply lexes_to_app; [exact Lv|].
      apply (lexes_to_app _ [COMMA] _ r [c]); [now apply lexes_to_punct|].
      now apply (lexes_to_app _ [SPACE] _ r []); [apply lexes_to_space|].
Qed.

Lemma lex_shows_seq : forall op cl vs trail, punct op = true -> cl = RPAREN \/ cl = RBRACKET ->
  trail = [] \/ trail = [COMMA] -> Forall lex_shows vs -> forall p r, exists ts',
    toks_seq toks_of op cl vs trail (tok p [op] :: ts') /\
    lexes_to p (op :: join_items (map show vs) ++ trail ++ [cl]) r (tok p [op] :: ts').
Proof.
  intros op cl vs trail Hop Hcl Htr F p r.
  assert (Hf : follow_ok ((trail ++ [cl]) ++ r)) by (destruct Htr as [->| ->], Hcl as [->| ->]; reflexivity).
  assert (Hc : punct cl = true) by now destruct Hcl as [->| ->].
  destruct (lex_shows_items vs F (p ++ [op]) _ Hf) as (tl & Tl & Ll). set (q := (p ++ [op]) ++ join_items (map show vs)) in *.
  assert (C : exists tc, map ttext tc = map (fun c => [c]) trail /\ lexes_to q trail ([cl] ++ r) tc).
  { destruct Htr as [->| ->]; [exists []; split; [reflexivity|apply lexes_to_nil]|].
    exists [tok q [COMMA]]. split; [reflexivity|]. now apply lexes_to_punct. }
  destruct C as (tc & Tc & Lc).
  exists (tl ++ tc ++ [tok (q ++ trail) [cl]]). split.
  - exists (tok p [op]), tl, tc, (tok (q ++ trail) [cl]). now repeat split.
  - apply (lexes_to_app p [op] _ r [tok p [op]]); [now apply lexes_to_punct|].
    apply lexes_to_app; [exact Ll|]. apply lexes_to_app; [exact Lc|]. now apply lexes_to_punct.
Qed.

Lemma lex_shows_ctor : forall name mk x, In name words ->
  (forall y, show (mk y) = name ++ LPAREN :: show y ++ [RPAREN]) ->
  (forall y ts, toks_ctor toks_of name y ts -> toks_of (mk y) ts) ->
  lex_shows x -> lex_shows (mk x).
Proof.
  intros name mk x Hin Hshow Htoks IH p r Hr. rewrite Hshow.
  destruct (lex_shows_seq LPAREN RPAREN [x] [] eq_refl (or_introl eq_refl) (or_introl eq_refl)
              (Forall_cons x IH (Forall_nil _)) (p ++ name) r) as (ts' & Ts & Ls).
  cbn [map join_items app] in Ls. rewrite app_nil_r in Ls.
  exists (tok p name :: tok (p ++ name) [LPAREN] :: ts'). split.
  - apply Htoks. exists (tok p name), (tok (p ++ name) [LPAREN]), ts'. repeat split; [|exact Ts].
    unfold touching. cbn [tok tpos text_pos end_offset start_offset]. rewrite blen_app. apply N.eqb_refl.
  - apply (lexes_to_app p name _ r [tok p name]); [now apply lexes_to_word|exact Ls].
Qed.

Lemma lex_shows_all : forall v, lex_shows v.
Proof.
  induction v as [z|s|b| | |x IH|x IH|x IH|vs IH|vs IH] using lit_ind'.
  - intros p r Hr. exists [tok p (show_int z)]. split; [now eexists|now apply lexes_to_int].
  - intros p r Hr. eexists. split; [|apply lexes_to_string]. now eexists.
  - intros p r Hr. exists [tok p (show (LBool b))]. split; [now eexists|].
    apply lexes_to_word; [destruct b; cbn; auto|now apply (follow_stops is_sym_char)].
  - intros p r Hr. exists [tok p T_UNIT]. split; [now eexists|].
    apply lexes_to_word; [cbn; auto|now apply (follow_stops is_sym_char)].
  - intros p r Hr. exists [tok p T_NONE]. split; [now eexists|].
    apply lexes_to_word; [cbn; auto|now apply (follow_stops is_sym_char)].
  - apply (lex_shows_ctor T_SOME LSome); [cbn; auto 8|reflexivity|intros y ts H; exact H|exact IH].
  - apply (lex_shows_ctor T_OK LOk); [cbn; auto 8|reflexivity|intros y ts H; exact H|exact IH].
  - apply (lex_shows_ctor T_ERR LErr); [cbn; auto 9|reflexivity|intros y ts H; exact H|exact IH].
  - intros p r _.
    destruct (lex_shows_seq LBRACKET RBRACKET vs [] eq_refl (or_intror eq_refl) (or_introl eq_refl) IH p r)
      as (ts' & Ts & Ls).
    eexists. split; [exact Ts|exact Ls].
  - intros p r _.
    assert (Htr : tuple_trail vs = [] \/ tuple_trail vs = [COMMA]) by (destruct vs as [|? [|]]; cbn; auto).
    destruct (lex_shows_seq LPAREN RPAREN vs _ eq_refl (or_introl eq_refl) Htr IH p r) as (ts' & Ts & Ls).
    eexists. split; [exact Ts|exact Ls].
Qed.

Lemma text_eqb_head_ne : forall x y a b, x <> y -> text_eqb (x :: a) (y :: b) = false.
Proof. intros x y a b H. cbn [text_eqb]. now rewrite (proj2 (N.eqb_neq x y)). Qed.

Lemma is_text_eq : forall t s, ttext t = s -> is_text t s = true.
Proof.
  intros t s <-. unfold is_text. induction (ttext t) as [|c l IH]; [reflexivity|].
  cbn [text_eqb]. now rewrite N.eqb_refl.
Qed.

Definition starts_off (w : list N) (ts : list token) : Prop :=
  exists t ts', ts = t :: ts' /\ is_text t w = false.

Lemma starts_off_app : forall w ts rest, starts_off w ts -> starts_off w (ts ++ rest).
Proof. intros w ts rest (t & ts' & -> & H). now exists t, (ts' ++ rest). Qed.

Section ReaderRules.
  Variables (rd : reader) (n : nat) (term : list N).

  Lemma comma_items_end : forall t r, ttext t = term -> comma_items rd (S n) term (t :: r) = Some ([], t :: r).
  Proof. intros t r E. cbn [comma_items]. now rewrite (is_text_eq _ _ E). Qed.

  Lemma comma_items_last : forall ts v t2 r2, starts_off term ts -> rd ts = Some (v, t2 :: r2) ->
    is_text t2 [COMMA] = false -> ttext t2 = term -> comma_items rd (S n) term ts = Some ([v], t2 :: r2).
  Proof.
    intros ts v t2 r2 (t & ts' & -> & Nt) E Nc Et. cbn [comma_items]. now rewrite Nt, E, Nc, (is_text_eq _ _ Et).
  Qed.

  Lemma comma_items_next : forall ts v c r2 vs r3, starts_off term ts -> rd ts = Some (v, c :: r2) ->
    ttext c = [COMMA] -> comma_items rd n term r2 = Some (vs, r3) ->
    comma_items rd (S n) term ts = Some (v :: vs, r3).
  Proof.
    intros ts v c r2 vs r3 (t & ts' & -> & Nt) E Ec R. cbn [comma_items]. now rewrite Nt, E, (is_text_eq _ _ Ec), R.
  Qed.

End ReaderRules.

Lemma tuple_rest_items : forall rd n c r res, is_text c [COMMA] = true ->
  comma_items rd n [RPAREN] r = Some res -> tuple_rest rd (S n) (c :: r) = Some res.
Proof.
  intro rd. induction n as [|n IH]; intros c r res Ec H; [discriminate|].
  cbn [comma_items] in H. remember (S n) as m eqn:Em. cbn [tuple_rest]. rewrite Ec.
  destruct r as [|t2 r2]; [discriminate|]. destruct (is_text t2 [RPAREN]); [exact H|].
  destruct (rd (t2 :: r2)) as [[v [|t3 r4]]|]; try discriminate.
  destruct (is_text t3 [COMMA]) eqn:E3.
  - destruct (comma_items rd n [RPAREN] r4) as [[vs r5]|] eqn:E; [|discriminate].
    now rewrite (IH t3 r4 _ E3 E).
  - destruct (is_text t3 [RPAREN]) eqn:E4; [|discriminate]. injection H as <-.
    subst m. cbn [tuple_rest]. now rewrite E3, E4.
Qed.

Lemma read_lit_list : forall f t r vs t2 r2, ttext t = [LBRACKET] ->
  comma_items (read_lit f) f [RBRACKET] r = Some (vs, t2 :: r2) -> read_lit (S f) (t :: r) = Some (LList vs, r2).
Proof. intros f t r vs t2 r2 E R. cbn [read_lit]. unfold is_text. now rewrite E, R. Qed.

Lemma read_lit_unit_tuple : forall f t t2 r2, ttext t = [LPAREN] -> ttext t2 = [RPAREN] ->
  read_lit (S f) (t :: t2 :: r2) = Some (LTuple [], r2).
Proof. intros f t t2 r2 E E2. cbn [read_lit]. now rewrite (is_text_eq _ _ E), (is_text_eq _ _ E2). Qed.

Lemma read_lit_tuple : forall f t r v c r3 vs t4 r4, ttext t = [LPAREN] -> starts_off [RPAREN] r ->
  read_lit f r = Some (v, c :: r3) -> ttext c = [COMMA] ->
  tuple_rest (read_lit f) f (c :: r3) = Some (vs, t4 :: r4) ->
  read_lit (S f) (t :: r) = Some (LTuple (v :: vs), r4).
Proof.
  intros f t r v c r3 vs t4 r4 E (t2 & r2 & -> & Nt) Rv Ec Rt.
  cbn [read_lit]. now rewrite (is_text_eq _ _ E), Nt, Rv, (is_text_eq _ _ Ec), Rt.
Qed.

Definition ctors : list (list N * (lit -> lit)) := [(T_SOME, LSome); (T_OK, LOk); (T_ERR, LErr)].

Lemma read_lit_ctor : forall name mk f t t2 r2 x t3 r3, In (name, mk) ctors ->
  ttext t = name -> ttext t2 = [LPAREN] -> touching t t2 = true ->
  comma_items (read_lit f) f [RPAREN] r2 = Some ([x], t3 :: r3) ->
  read_lit (S f) (t :: t2 :: r2) = Some (mk x, r3).
Proof.
  intros name mk f [ps w cs] [ps2 w2 cs2] r2 x t3 r3 Hin E E2 Tc R. cbn [ttext] in E, E2. subst w w2.
  cbn [read_lit]. rewrite Tc, R. now destruct Hin as [[= <- <-]|[[= <- <-]|[[= <- <-]|[]]]].
Qed.

Lemma read_lit_word : forall w v f t r,
  In (w, v) [(T_TRUE, LBool true); (T_FALSE, LBool false); (T_UNIT, LUnit); (T_NONE, LNone)] ->
  ttext t = w -> read_lit (S f) (t :: r) = Some (v, r).
Proof.
  intros w v f [ps w' cs] r Hin E. cbn [ttext] in E. subst w'.
  now destruct Hin as [[= <- <-]|[[= <- <-]|[[= <- <-]|[[= <- <-]|[]]]]].
Qed.

Lemma read_lit_string : forall s f t r, ttext t = escape s -> read_lit (S f) (t :: r) = Some (LStr s, r).
Proof.
  intros s f t r E. cbn [read_lit]. unfold is_text. rewrite E. unfold escape at 1 2 3.
  rewrite !text_eqb_head_ne by discriminate. change (is_sym_start QUOTE) with false.
  change (QUOTE =? QUOTE) with true. cbv iota. now rewrite unescape_escape.
Qed.

Lemma read_lit_int : forall z f t r, ttext t = show_int z -> in_i64 z = true ->
  read_lit (S f) (t :: r) = Some (LInt z, r).
Proof.
  intros z f t r E Hz. destruct (show_int_shape z) as (sg & d & ds & Es & Hsg & Hd & Hds).
  pose proof (float_re_int sg d ds [] Hsg Hd Hds I) as Hf.
  pose proof (integer_re_int sg d ds [] Hsg Hd Hds I) as Hi. rewrite app_nil_r, <- Es in Hf, Hi.
  assert (H : exists c l, show_int z = c :: l /\ c <> LPAREN /\ c <> LBRACKET /\
                          is_sym_start c = false /\ (c =? QUOTE) = false).
  { rewrite Es. apply is_digit_range in Hd. destruct Hsg as [->| ->]; eexists _, _; (split; [reflexivity|]).
    - unfold LPAREN, LBRACKET, QUOTE. repeat split; try lia; [|apply N.eqb_neq; lia].
      apply not_true_iff_false. intro S. apply sym_start_range in S. lia.
    - repeat split; discriminate. }
  destruct H as (c & l & El & A1 & A2 & A3 & A4).
  cbn [read_lit]. unfold is_text. rewrite E, El, !text_eqb_head_ne, A3, A4, <- El, Hf, Hi by assumption.
  now rewrite parse_show_int.
Qed.

Definition first_text (v : lit) : list N :=
  match v with
  | LSome _ => T_SOME | LOk _ => T_OK | LErr _ => T_ERR
  | LList _ => [LBRACKET] | LTuple _ => [LPAREN]
  | _ => show v
  end.

Lemma toks_head : forall v ts, toks_of v ts -> exists t ts', ts = t :: ts' /\ ttext t = first_text v.
Proof.
  intros v ts H. destruct v as [z|s|b| | |x|x|x|vs|vs]; cbn [toks_of] in H.
  1-5: destruct H as (t & -> & E); now exists t, [].
  1-3: destruct H as (t1 & t2 & ts' & -> & E & _); now exists t1, (t2 :: ts').
  all: destruct H as (t1 & tl & tc & t2 & -> & E & _); now eexists _, _.
Qed.

Definition is_term (term : list N) : Prop := term = [RBRACKET] \/ term = [RPAREN].

Lemma first_not_term : forall v ts term rest, toks_of v ts -> is_term term -> starts_off term (ts ++ rest).
Proof.
  intros v ts term rest H T. apply starts_off_app. destruct (toks_head v ts H) as (t & ts' & -> & E).
  exists t, ts'. split; [reflexivity|]. unfold is_text. rewrite E.
  destruct v as [z|s|[|]| | |x|x|x|vs|vs]; try (destruct T as [->| ->]; reflexivity).
  cbn [first_text show]. destruct (show_int_shape z) as (sg & d & ds & -> & Hsg & Hd & _).
  apply is_digit_range in Hd.
  destruct Hsg as [->| ->], T as [->| ->]; apply text_eqb_head_ne; unfold RPAREN, RBRACKET, MINUS; lia.
Qed.

Lemma term_not_comma : forall t term, is_term term -> ttext t = term -> is_text t [COMMA] = false.
Proof. intros t term [->| ->] E; unfold is_text; rewrite E; reflexivity. Qed.

Definition reads (v : lit) : Prop :=
  forall ts rest fuel, toks_of v ts -> printable v = true -> (length ts < fuel)%nat ->
  read_lit fuel (ts ++ rest) = Some (v, rest).

Lemma comma_items_read : forall vs, Forall reads vs ->
  forall tl term tterm rest f n, toks_items toks_of vs tl -> forallb printable vs = true ->
  is_term term -> ttext tterm = term -> (length tl < f)%nat -> (length tl < n)%nat ->
  comma_items (read_lit f) n term (tl ++ tterm :: rest) = Some (vs, tterm :: rest).
Proof.
  intros vs F. induction F as [|v vs Hv F IH]; intros tl term tterm rest f n Tl Hp Tm Et Lf Ln;
    (destruct n as [|n]; [lia|]); cbn [toks_items] in Tl.
  - subst tl. now apply comma_items_end.
  - destruct Tl as (tv & tl' & -> & Tv & Tl). cbn [forallb] in Hp. apply andb_prop in Hp as [Pv Ps].
    rewrite app_length in Lf, Ln. rewrite <- app_assoc.
    assert (Rv : forall X, read_lit f (tv ++ X) = Some (v, X)) by (intro X; apply Hv; [exact Tv|exact Pv|lia]).
    pose proof (first_not_term v tv term (tl' ++ tterm :: rest) Tv Tm) as Nt.
    destruct vs as [|v2 vs].
    + subst tl'. apply comma_items_last; [exact Nt|apply Rv|now apply (term_not_comma _ term)|exact Et].
    + destruct Tl as (c & tl'' & -> & Ec & Tl). cbn [length app] in *.
      apply (comma_items_next _ _ _ _ v c (tl'' ++ tterm :: rest)); [exact Nt|apply Rv|exact Ec|].
      apply IH; try assumption; lia.
Qed.

Lemma toks_seq_plain : forall op cl vs ts, toks_seq toks_of op cl vs [] ts ->
  exists t1 tl t2, ts = t1 :: tl ++ [t2] /\ ttext t1 = [op] /\ toks_items toks_of vs tl /\ ttext t2 = [cl].
Proof.
  intros op cl vs ts (t1 & tl & tc & t2 & -> & E1 & Tl & Tc & E2). apply map_eq_nil in Tc. subst tc.
  now exists t1, tl, t2.
Qed.

Lemma read_ctor : forall name mk x, In (name, mk) ctors ->
  reads x -> forall ts rest fuel, toks_ctor toks_of name x ts -> printable x = true ->
  (length ts < fuel)%nat -> read_lit fuel (ts ++ rest) = Some (mk x, rest).
Proof.
  intros name mk x Hin Hx ts rest fuel (t1 & t2 & ts' & -> & E1 & Tc & S) Hp L.
  apply toks_seq_plain in S as (t2' & tl & t3 & [= <- ->] & E2 & Tl & E3).
  destruct fuel as [|f]; [lia|]. cbn [length app] in *. rewrite app_length in L. rewrite <- app_assoc.
  apply (read_lit_ctor name mk _ _ _ _ x t3 rest Hin E1 E2 Tc).
  apply comma_items_read; try assumption; [now repeat constructor|cbn; now rewrite Hp|now right|lia|lia].
Qed.

Lemma reads_all : forall v, reads v.
Proof.
  induction v as [z|s|b| | |x IH|x IH|x IH|vs IH|vs IH] using lit_ind'; intros ts rest fuel Ht Hp L.
  1-5: destruct Ht as (t & -> & E); destruct fuel as [|f]; [cbn in L; lia|]; cbn [app].
  - now apply read_lit_int.
  - now apply read_lit_string.
  - apply (read_lit_word (show (LBool b))); [destruct b; cbn; auto|exact E].
  - apply (read_lit_word T_UNIT); [cbn; auto|exact E].
  - apply (read_lit_word T_NONE); [cbn; auto|exact E].
  - apply (read_ctor T_SOME LSome); auto; cbn; auto.
  - apply (read_ctor T_OK LOk); auto; cbn; auto.
  - apply (read_ctor T_ERR LErr); auto; cbn; auto.
  - apply toks_seq_plain in Ht as (t1 & tl & t2 & -> & E1 & Tl & E2).
    destruct fuel as [|f]; [lia|]. cbn [length app] in *. rewrite app_length in L. rewrite <- app_assoc.
    apply (read_lit_list _ _ _ _ t2 rest E1). apply comma_items_read; try assumption; [now left|lia|lia].
  - destruct Ht as (t1 & tl & tc & t2 & -> & E1 & Tl & Tc & E2). destruct fuel as [|f]; [lia|].
    cbn [length app] in *. rewrite !app_length in L. rewrite <- !app_assoc. cbn [app]. cbn [printable] in Hp.
    destruct IH as [|v vs Hv F]; cbn [toks_items] in Tl.
    + subst tl. apply map_eq_nil in Tc. subst tc. now apply read_lit_unit_tuple.
    + destruct Tl as (tv & tl' & -> & Tv & Tl). cbn [forallb] in Hp. apply andb_prop in Hp as [Pv Ps].
      rewrite app_length in L. rewrite <- app_assoc.
      (* what follows the first item: a comma, the trailing one or that of the next item, then the other items *)
      assert (C : exists c X, tl' ++ tc = c :: X /\ ttext c = [COMMA] /\ toks_items toks_of vs X).
      { destruct vs as [|v2 vs].
        - subst tl'. destruct tc as [|c [|]]; try discriminate. injection Tc as Ec. now exists c, [].
        - destruct Tl as (c & X & -> & Ec & Tl). apply map_eq_nil in Tc. subst tc. rewrite app_nil_r. now exists c, X. }
      destruct C as (c & X & Er & Ec & TX). rewrite (app_assoc tl'), Er. cbn [app].
      apply (f_equal (@length _)) in Er. rewrite !app_length in *. cbn [length] in *. destruct f as [|f]; [lia|].
      apply (read_lit_tuple _ _ _ v c (X ++ t2 :: rest) vs t2 rest E1); [now apply (first_not_term v); [|right]| |exact Ec|].
      * apply Hv; [exact Tv|exact Pv|lia].
      * apply tuple_rest_items; [now apply is_text_eq|]. apply comma_items_read; try assumption; [now right|lia|lia].
Qed.

Lemma show_head_not_hash : forall v, shebang_skip (show v) = 0.
Proof.
  intro v. destruct v as [z|s|[|]| | |x|x|x|vs|vs]; try reflexivity.
  cbn [show]. destruct (show_int_shape z) as (sg & d & ds & -> & Hsg & Hd & _). apply is_digit_range in Hd.
  destruct Hsg as [->| ->]; [|reflexivity]. cbn [app shebang_skip].
  now rewrite (proj2 (N.eqb_neq d HASH)) by (unfold HASH; lia).
Qed.

Lemma literal_roundtrip_lemma : forall v, printable v = true ->
  exists toks, lex (show v) = LexOk toks [] [] /\ read_literal toks = Some (v, []).
Proof.
  intros v Hp. destruct (lex_shows_all v [] [] I) as (toks & Tk & Lx).
  exists toks. split.
  - apply lex_by_run; [apply show_head_not_hash|].
    replace (LexOk toks [] []) with (fold_right cons_tok (LexOk [] [] []) toks).
    + apply Lx; [now rewrite app_nil_r|]. apply R_end. apply N.ltb_irrefl.
    + clear. induction toks as [|t toks IH]; [reflexivity|]. cbn [fold_right]. now rewrite IH.
  - unfold read_literal. rewrite <- (app_nil_r toks) at 2. apply reads_all; [exact Tk|exact Hp|lia].
Qed.

Lemma read_source_show : forall v, printable v = true -> read_source (show v) = Some v.
Proof.
  intros v Hp. destruct (literal_roundtrip_lemma v Hp) as (toks & L & R).
  unfold read_source. now rewrite L, R.
Qed.

(* prints as [Some(-9223372036854775808), (1,), ("a\\", True), (), [], Ok(Err(Unit))] *)
Definition sample_value : lit :=
  LList [LSome (LInt (-9223372036854775808)); LTuple [LInt 1];
         LTuple [LStr [97; 92]; LBool true]; LTuple []; LList []; LOk (LErr LUnit)].

Lemma sample_value_roundtrip :
  printable sample_value = true /\
  read_source (show sample_value) = Some sample_value /\
  show sample_value =
    [91; 83; 111; 109; 101; 40; 45; 57; 50; 50; 51; 51; 55; 50; 48; 51; 54; 56; 53; 52; 55; 55; 53; 56; 48;
     56; 41; 44; 32; 40; 49; 44; 41; 44; 32; 40; 34; 97; 92; 92; 34; 44; 32; 84; 114; 117; 101; 41; 44; 32;
     40; 41; 44; 32; 91; 93; 44; 32; 79; 107; 40; 69; 114; 114; 40; 85; 110; 105; 116; 41; 41; 93].
Proof. split; [reflexivity|]. split; [exact (read_source_show sample_value eq_refl)|vm_compute; reflexivity]. Qed.

(* an integer outside i64 is refused by the reader (the parser reports an error) *)
Lemma out_of_range_refused :
  parse_i64 [57; 50; 50; 51; 51; 55; 50; 48; 51; 54; 56; 53; 52; 55; 55; 53; 56; 48; 56] = None /\
  parse_i64 [45; 57; 50; 50; 51; 51; 55; 50; 48; 51; 54; 56; 53; 52; 55; 55; 53; 56; 48; 56] =
    Some (-9223372036854775808)%Z /\
  parse_i64 [49; 95; 48; 48; 48] = Some 1000%Z.
Proof. vm_compute. repeat split. Qed.
