(* C11: incremental session input equals running it as one program, for every
   history of requests (Properties/C11.v has instances).  From the refinement
   of the reference semantics (RefineProps.v): request by request the session
   model computes what Ref.v computes from the scopes the previous request
   left, and Ref.v threads its state through a concatenation of inputs. *)
From Coq Require Import ZArith Bool List Lia.
From Garden Require Import Machine MachineInv Session Ref Refine RefineProps.
Import ListNotations.
Open Scope nat_scope.

Fixpoint ref_incremental (p : prog) (fuel : nat) (s : st) (reqs : list (list expr)) : option (list value * st) :=
  match reqs with
  | [] => Some ([], s)
  | r :: rs =>
      match run_toplevel p fuel s r with
      | (Ok v, s1) =>
          match ref_incremental p fuel s1 rs with
          | Some (l, s2) => Some (v :: l, s2)
          | None => None
          end
      | _ => None
      end
  end.

Lemma run_toplevel_app p fuel e1 : forall s v1 s1 e2,
  run_toplevel p fuel s e1 = (Ok v1, s1) -> e2 <> [] ->
  run_toplevel p fuel s (e1 ++ e2) = run_toplevel p fuel s1 e2.
Proof.
  induction e1 as [|x [|y e1] IH]; intros s v1 s1 e2 H NE.
  - injection H as _ <-. reflexivity.
  - cbn [run_toplevel] in H. destruct e2 as [|z e2]; [contradiction|].
    cbn [app]. rewrite run_toplevel_cons, H. reflexivity.
  - change ((x :: y :: e1) ++ e2) with (x :: y :: e1 ++ e2). rewrite run_toplevel_cons in *.
    destruct (eval p fuel s x) as [[w|c| |] sx]; try discriminate. exact (IH _ _ _ _ H NE).
Qed.

Lemma ref_incremental_length p fuel : forall reqs s l s', ref_incremental p fuel s reqs = Some (l, s') -> length l = length reqs.
Proof.
  induction reqs as [|r rs IH]; intros s l s' H; cbn [ref_incremental] in H.
  - inversion H; reflexivity.
  - destruct (run_toplevel p fuel s r) as [[v|c| |] s1]; try discriminate.
    destruct (ref_incremental p fuel s1 rs) as [[l2 s2]|] eqn:E; [|discriminate].
    inversion H; subst. cbn. f_equal. eapply IH; eassumption.
Qed.

Lemma concat_nonempty {A} (rs : list (list A)) : rs <> [] -> Forall (fun r => r <> []) rs -> concat rs <> [].
Proof.
  intros N F. destruct rs as [|r rs]; [contradiction|]. inversion F; subst.
  cbn. destruct r; [contradiction|discriminate].
Qed.

Theorem ref_incremental_eq_batch p fuel d : forall reqs s l s',
  ref_incremental p fuel s reqs = Some (l, s') -> reqs <> [] -> Forall (fun r => r <> []) reqs ->
  run_toplevel p fuel s (concat reqs) = (Ok (last l d), s').
Proof.
  induction reqs as [|r rs IH]; intros s l s' H N F; [contradiction|].
  cbn [ref_incremental] in H. inversion F as [|? ? Nr Frs]; subst.
  destruct (run_toplevel p fuel s r) as [[v|c| |] s1] eqn:E; try discriminate.
  destruct (ref_incremental p fuel s1 rs) as [[l2 s2]|] eqn:E2; [|discriminate].
  inversion H; subst. cbn [concat].
  destruct rs as [|r2 rs].
  - cbn in E2. inversion E2; subst. cbn. rewrite app_nil_r. exact E.
  - assert (N2 : r2 :: rs <> []) by discriminate.
    rewrite (run_toplevel_app _ _ _ _ _ _ _ E (concat_nonempty _ N2 Frs)).
    rewrite (IH _ _ _ E2 N2 Frs).
    pose proof (ref_incremental_length _ _ _ _ _ _ E2) as L. destruct l2; [discriminate|]. reflexivity.
Qed.

Definition stuck (p : prog) (s : state) : Prop := forall x, step p s <> Next x.

Lemma run_steps_det p n : forall m a b c,
  run_steps p n a = Some b -> run_steps p m a = Some c -> stuck p b -> stuck p c -> b = c.
Proof.
  induction n as [|n IH]; intros m a b c H1 H2 SB SC; cbn [run_steps] in H1.
  - inversion H1; subst. destruct m; cbn [run_steps] in H2; [inversion H2; reflexivity|].
    destruct (step p b) eqn:E; try discriminate. exfalso. eapply SB; eassumption.
  - destruct (step p a) eqn:E; try discriminate.
    destruct m; cbn [run_steps] in H2.
    + inversion H2; subst. exfalso. eapply SC; eassumption.
    + rewrite E in H2. eapply IH; eassumption.
Qed.

Lemma idle_stuck p s : idle s = true -> stuck p s.
Proof.
  unfold idle, stuck, step. intros I x H.
  destruct (stack s) as [|f [|g rest]]; try discriminate.
  destruct (todo f); [|discriminate]. destruct (vals f); discriminate.
Qed.

Lemma done_stuck p s v s' : step p s = Done v s' -> stuck p s.
Proof. intros H x H2. congruence. Qed.

Lemma exec_call_uses p f s e f' callee :
  exec p f s e = XCall f' callee -> uses f' = uses f /\ uses callee = eused e.
Proof.
  intros H. apply exec_spec in H as (_ & m & fe & args & -> & E).
  apply eval_call_cases in E as (vs & bs & body & -> & ->). split; reflexivity.
Qed.

(* the frame at depth d (counted from the bottom) has caller_uses_value = um *)
Definition marks (um : bool) (d : nat) (st : list frame) : Prop :=
  exists upper f lower, st = upper ++ f :: lower /\ length (f :: lower) = d /\ uses f = um.

Lemma marks_top um d f rest : marks um d (f :: rest) -> d = length (f :: rest) -> uses f = um.
Proof.
  intros (upper & g & lower & E & L & U) D. destruct upper as [|h upper].
  - cbn in E. injection E as -> ->. exact U.
  - exfalso. apply (f_equal (@length frame)) in E. rewrite app_length in E. cbn [length] in *. lia.
Qed.

Lemma marks_top_replaced um d f0 rest above f' :
  uses f' = uses f0 -> marks um d (f0 :: rest) -> marks um d (above ++ f' :: rest).
Proof.
  intros U (upper & g & lower & E & L & UG). destruct upper as [|h upper]; injection E as <- E.
  - subst lower. exists above, f', rest. rewrite U. auto.
  - subst rest. exists (above ++ f' :: upper), g, lower. rewrite <- app_assoc. auto.
Qed.

Lemma marks_popped um d f0 c c' rest :
  marks um d (f0 :: c :: rest) -> d <> length (f0 :: c :: rest) -> uses c' = uses c -> marks um d (c' :: rest).
Proof.
  intros (upper & g & lower & E & L & UG) D U. destruct upper as [|h upper]; injection E as <- E.
  - subst lower. congruence.
  - apply (marks_top_replaced um d c rest [] c' U). exists upper, g, lower. auto.
Qed.

Lemma step_marks p s s' um d :
  step p s = Next s' -> marks um d (stack s) ->
  (d = length (stack s) -> exists f rest, stack s = f :: rest /\ todo f <> []) ->
  marks um d (stack s').
Proof.
  unfold step. intros H M SIDE.
  destruct (stack s) as [|f0 rest] eqn:ES; [discriminate|].
  destruct (todo f0) as [|[es e] t] eqn:ET.
  - destruct rest as [|caller rest']; [destruct (vals f0); discriminate|].
    destruct (vals f0) as [|v vs]; [discriminate|]. injection H as <-. cbn [stack].
    eapply marks_popped; [exact M| |apply push_val_if_uses].
    intros D. destruct (SIDE D) as (f1 & r1 & [= <- <-] & N1). congruence.
  - destruct (interrupted s); [discriminate|].
    destruct (opt_le _ _); [discriminate|]. destruct (opt_lt _ _); [discriminate|].
    destruct (exec p (set_todo f0 t) es e) as [f' pr|f' callee| | |] eqn:EX; try discriminate; injection H as <-; cbn [stack].
    + exact (marks_top_replaced um d f0 rest [] f' (proj2 (exec_spec _ _ _ _ _ EX)) M).
    + exact (marks_top_replaced um d f0 rest [callee] f' (proj1 (exec_call_uses _ _ _ _ _ _ EX)) M).
Qed.

Lemma step_grows p s s' f rest es e t :
  step p s = Next s' -> stack s = f :: rest -> todo f = (es, e) :: t ->
  length (stack s) < length (stack s') ->
  exists callee r, stack s' = callee :: r /\ uses callee = eused e.
Proof.
  unfold step. intros H ES ET LT. rewrite ES, ET in H.
  destruct (interrupted s); [discriminate|].
  destruct (opt_le _ _); [discriminate|]. destruct (opt_lt _ _); [discriminate|].
  destruct (exec p (set_todo f t) es e) as [f' pr|f' callee| | |] eqn:EX; try discriminate; injection H as <-;
    unfold with_stack in *; cbn [stack] in *.
  - rewrite ES in LT. cbn [length] in LT. lia.
  - exact (ex_intro _ _ (ex_intro _ _ (conj eq_refl (proj2 (exec_call_uses _ _ _ _ _ _ EX))))).
Qed.

Lemma meta_eqb_used a b : meta_eqb a b = true -> used a = used b.
Proof. unfold meta_eqb. intros H. apply andb_prop in H. destruct H as [H _]. apply andb_prop in H. destruct H as [H _]. now apply eqb_prop. Qed.

(* What an answer RDone v s' of the session's eval loop means in machine steps. *)
Definition stopped_at (p : prog) (s : state) (v : value) (s' : state) : Prop :=
  (exists n s_pre, run_steps p n s = Some s_pre /\ step p s_pre = Next s' /\
     exists f' rest, stack s' = f' :: rest /\ (vals f' = [] \/ exists vs, vals f' = v :: vs)) \/
  (exists n s_pre, run_steps p n s = Some s_pre /\ step p s_pre = Done v s').

Lemma stopped_at_step p s s1 v s' : step p s = Next s1 -> stopped_at p s1 v s' -> stopped_at p s v s'.
Proof.
  intros ST [(n & sp & R & S1 & X)|(n & sp & R & S1)]; [left|right]; exists (S n), sp;
    (split; [cbn [run_steps]; rewrite ST; exact R|auto]).
Qed.

Lemma eval_loop_sound p stop (US : used stop = true) : forall fuel calld s v s',
  eval_loop true p fuel (Some stop) calld s = RDone v s' ->
  match calld with Some d => marks true d (stack s) | None => True end ->
  stopped_at p s v s'.
Proof.
  induction fuel as [|n IH]; intros calld s v s' H M; cbn [eval_loop] in H; [discriminate|].
  destruct (stack s) as [|f rest] eqn:ES; [discriminate|].
  assert (GEN : forall calld',
     match step p s with
     | Next s1 => eval_loop true p n (Some stop) calld' s1
     | Done v0 s1 => RDone v0 s1
     | Failed e s1 => RFailed e s1
     | Crashed => RCrashed
     | Unsupported => RUnsupported
     end = RDone v s' ->
     (forall s1, step p s = Next s1 -> match calld' with Some d => marks true d (stack s1) | None => True end) ->
     stopped_at p s v s').
  { intros calld' H0 M0. destruct (step p s) as [s1|v0 s1|? ?| |] eqn:ST; try discriminate.
    - eapply stopped_at_step; [exact ST|]. eapply IH; [exact H0|]. apply M0. reflexivity.
    - inversion H0; subst. right. exists O, s. split; [reflexivity|exact ST]. }
  destruct (todo f) as [|[es e] t] eqn:ET.
  - destruct rest as [|caller rest'].
    + apply (GEN calld); [destruct calld; exact H|].
      intros s1 ST. exfalso. unfold step in ST. rewrite ES, ET in ST. destruct (vals f); discriminate.
    + destruct calld as [d|].
      * destruct (Nat.eqb d (length (f :: caller :: rest'))) eqn:DE.
        -- apply Nat.eqb_eq in DE. pose proof (marks_top _ _ _ _ M DE) as UF.
           destruct (vals f) as [|v0 vs0] eqn:EV; [discriminate|]. inversion H; subst.
           left. exists O, s. split; [reflexivity|]. split.
           { unfold step. rewrite ES, ET, EV. reflexivity. }
           rewrite UF. cbn. eexists. eexists. split; [reflexivity|]. right. eexists. reflexivity.
        -- apply (GEN (Some d)); [exact H|]. intros s1 ST. eapply step_marks; [exact ST|rewrite ES; exact M|].
           intros D. rewrite ES in D. apply Nat.eqb_neq in DE. contradiction.
      * apply (GEN None); [exact H|]. intros; exact I.
  - destruct (step p s) as [s1|v0 s1|? ?| |] eqn:ST; try discriminate.
    + set (is_stop := meta_eqb (emeta e) stop) in *.
      assert (MK : forall d, marks true d (stack s) -> marks true d (stack s1)).
      { intros d Md. eapply step_marks; [exact ST|exact Md|]. intros _. exists f, rest. split; [exact ES|congruence]. }
      destruct (is_stop && Nat.eqb (length (stack s1)) (length (f :: rest)) && finishes es e) eqn:A.
      * destruct (stack s1) as [|f' r] eqn:ES1; [discriminate|].
        destruct (vals f') as [|v1 vs1] eqn:EV; inversion H; subst; left; exists O, s;
          (split; [reflexivity|]); (split; [exact ST|]); exists f', r; (split; [exact ES1|]); [left|right]; eauto.
      * destruct (is_stop && Nat.ltb (length (f :: rest)) (length (stack s1))) eqn:B.
        -- apply andb_prop in B. destruct B as [B1 B2]. apply Nat.ltb_lt in B2.
           eapply stopped_at_step; [exact ST|]. eapply IH; [exact H|].
           rewrite <- ES in B2.
           destruct (step_grows _ _ _ _ _ _ _ _ ST ES ET B2) as (callee & r & E1 & U1).
           rewrite E1. exists [], callee, r. split; [reflexivity|]. split; [reflexivity|].
           rewrite U1. unfold is_stop in B1. apply meta_eqb_used in B1. unfold eused. congruence.
        -- eapply stopped_at_step; [exact ST|]. eapply IH; [exact H|].
           destruct calld; [apply MK; rewrite ES; exact M|exact I].
    + inversion H; subst. right. exists O, s. split; [reflexivity|exact ST].
Qed.

(* a history of run requests every one of which is answered with a value and
   leaves nothing pending; the values, in order *)
Fixpoint session_values (hfuel : nat) (p : prog) (s : state) (reqs : list (list expr)) : option (state * list value) :=
  match reqs with
  | [] => Some (s, [])
  | r :: rs =>
      match handle all_fixes hfuel p s (RRun r) with
      | (s1, RespValue v) =>
          if idle s1 then
            match session_values hfuel p s1 rs with
            | Some (s2, l) => Some (s2, v :: l)
            | None => None
            end
          else None
      | _ => None
      end
  end.

Lemma session_values_history hfuel p : forall reqs s s2 l,
  session_values hfuel p s reqs = Some (s2, l) ->
  run_history all_fixes hfuel p s (map RRun reqs) = (s2, map RespValue l).
Proof.
  induction reqs as [|r rs IH]; intros s s2 l H; cbn [session_values] in H.
  - inversion H; subst. reflexivity.
  - cbn [map run_history]. destruct (handle all_fixes hfuel p s (RRun r)) as [s1 a].
    destruct a; try discriminate. destruct (idle s1); [|discriminate].
    destruct (session_values hfuel p s1 rs) as [[s3 l3]|] eqn:E; [|discriminate].
    inversion H; subst. rewrite (IH _ _ _ E). reflexivity.
Qed.

Lemma last_used (d : expr) : forall r, forallb wa_sub r = true -> r <> [] -> eused (last r d) = true.
Proof.
  induction r as [|x r IH]; intros W N; [contradiction|].
  cbn [forallb] in W. apply andb_prop in W. destruct W as [Wx Wr].
  destruct r as [|y r]; [unfold wa_sub in Wx; apply andb_prop in Wx; exact (proj1 Wx)|].
  change (last (x :: y :: r) d) with (last (y :: r) d). apply IH; [exact Wr|discriminate].
Qed.

Lemma run_steps_snoc p n a b c : run_steps p n a = Some b -> step p b = Next c -> run_steps p (n + 1) a = Some c.
Proof. intros R S. eapply run_steps_app; [exact R|]. cbn [run_steps]. rewrite S. reflexivity. Qed.

Lemma request_matches_ref p (PG : prog_good p = true) rfuel hfuel r sref v sref' vs tk S1 w :
  run_toplevel p rfuel sref r = (Ok v, sref') -> r <> [] ->
  forallb in_fragment r = true -> well_annotated_toplevel r = true ->
  env_good (scopes sref) = true -> scopes sref <> [] ->
  handle all_fixes hfuel p (cfg [] vs (scopes sref) true [] tk (printed sref)) (RRun r) = (S1, RespValue w) ->
  idle S1 = true ->
  w = v /\ st_ok sref sref' /\ exists vs' tk', S1 = cfg [] vs' (scopes sref') true [] tk' (printed sref').
Proof.
  intros HR NE F W G N HH ID.
  pose proof (toplevel_good p PG rfuel r sref F W G) as GT.
  pose proof (toplevel_sim p PG rfuel r sref vs NE F W G N tk) as TS.
  rewrite HR in GT, TS. destruct GT as [ST _]. destruct TS as (tkF & vsF & [m RF]).
  set (FIN := cfg [] (v :: vsF) (scopes sref') true [] tkF (printed sref')) in *.
  assert (SF : stuck p FIN) by (apply idle_stuck; reflexivity).
  cbn [handle] in HH. destruct r as [|x r']; [contradiction|].
  set (r := x :: r') in *.
  change (install (cfg [] vs (scopes sref) true [] tk (printed sref)) r)
    with (Some (cfg (fresh r) vs (scopes sref) true [] tk (printed sref))) in HH.
  cbn [fx_call all_fixes] in HH. unfold Session.eval in HH.
  change (idle (cfg (fresh r) vs (scopes sref) true [] tk (printed sref))) with false in HH.
  cbn iota in HH.
  set (stopm := emeta (last r (EUnsupported {| used := true; pstart := 0; pend := 0 |}))) in *.
  assert (US : used stopm = true) by (apply (last_used _ r W); discriminate).
  destruct (eval_loop true p hfuel (Some stopm) None (cfg (fresh r) vs (scopes sref) true [] tk (printed sref)))
    as [v0 s0|? ?| | |?] eqn:EL; cbn [respond] in HH; inversion HH; subst. clear HH.
  (* the session's run and the simulation's (RF) both end in a stuck state: the same one *)
  destruct (eval_loop_sound p stopm US _ _ _ _ _ EL I) as [(n & sp & R & S1' & f' & rest & ES & VV)|(n & sp & R & S1')].
  - pose proof (run_steps_snoc _ _ _ _ _ R S1') as R1.
    pose proof (run_steps_det _ _ _ _ _ _ R1 RF (idle_stuck p _ ID) SF) as EQ. subst S1.
    unfold FIN in ES. cbn [cfg stack] in ES. inversion ES; subst. cbn [vals] in VV.
    destruct VV as [VV|[vs0 VV]]; [discriminate|]. inversion VV; subst.
    split; [reflexivity|]. split; [exact ST|]. eexists. eexists. reflexivity.
  - pose proof (run_steps_det _ _ _ _ _ _ R RF (done_stuck _ _ _ _ S1') SF) as EQ. subst sp.
    unfold FIN in S1'. rewrite step_done in S1'. inversion S1'; subst.
    split; [reflexivity|]. split; [exact ST|]. exists vsF, tkF. reflexivity.
Qed.

Definition input_ok (r : list expr) : Prop :=
  r <> [] /\ forallb in_fragment r = true /\ well_annotated_toplevel r = true.

Lemma session_matches_ref p (PG : prog_good p = true) rfuel hfuel : forall reqs sref lref sref' vs tk S' l,
  ref_incremental p rfuel sref reqs = Some (lref, sref') -> Forall input_ok reqs ->
  env_good (scopes sref) = true -> scopes sref <> [] ->
  session_values hfuel p (cfg [] vs (scopes sref) true [] tk (printed sref)) reqs = Some (S', l) ->
  l = lref /\ out S' = printed sref'.
Proof.
  induction reqs as [|r rs IH]; intros sref lref sref' vs tk S' l HR FA G N HS.
  - cbn in HR, HS. inversion HR; subst. inversion HS; subst. split; reflexivity.
  - cbn [ref_incremental] in HR. cbn [session_values] in HS. inversion FA as [|? ? [NE [F W]] FA']; subst.
    destruct (run_toplevel p rfuel sref r) as [[v|c| |] s1] eqn:E; try discriminate.
    destruct (ref_incremental p rfuel s1 rs) as [[l2 s2]|] eqn:E2; [|discriminate]. inversion HR; subst.
    destruct (handle all_fixes hfuel p (cfg [] vs (scopes sref) true [] tk (printed sref)) (RRun r)) as [S1 a] eqn:HH.
    destruct a as [w| | | | | |]; try discriminate.
    destruct (idle S1) eqn:ID; [|discriminate].
    destruct (session_values hfuel p S1 rs) as [[S2 l3]|] eqn:E3; [|discriminate]. inversion HS; subst.
    destruct (request_matches_ref p PG rfuel hfuel r sref v s1 vs tk S1 w E NE F W G N HH ID) as (-> & ST & vs' & tk' & ->).
    destruct (IH _ _ _ _ _ _ _ E2 FA' (proj2 ST) (st_ok_nonempty _ _ ST N) E3) as [-> O].
    split; [reflexivity|exact O].
Qed.

Lemma forallb_concat {A} (f : A -> bool) (ls : list (list A)) :
  Forall (fun l => forallb f l = true) ls -> forallb f (concat ls) = true.
Proof. induction 1 as [|l ls H _ IH]; [reflexivity|]. cbn [concat]. rewrite forallb_app, H, IH. reflexivity. Qed.

(* C11, general: for every history of run requests in the fragment whose
   inputs the reference semantics evaluates without error, if the session
   answers every request with a value and is left idle -- request by request
   and for the concatenated input -- then the values of the incremental run
   are the reference's, the batch run gives the last of them, and both runs
   print the same output. *)
Theorem incremental_eq_batch p rfuel hfuel hfuel' reqs lref sref s_inc l_inc s_bat l_bat :
  prog_good p = true -> reqs <> [] -> Forall input_ok reqs ->
  ref_incremental p rfuel (mkSt [[]] []) reqs = Some (lref, sref) ->
  session_values hfuel p Session.fresh reqs = Some (s_inc, l_inc) ->
  session_values hfuel' p Session.fresh [concat reqs] = Some (s_bat, l_bat) ->
  l_inc = lref /\ l_bat = [last lref vunit] /\ last l_inc vunit = last l_bat vunit /\ out s_inc = out s_bat.
Proof.
  intros PG NE FA HR HI HB.
  change Session.fresh with (cfg [] [vunit] (scopes (mkSt [[]] [])) true [] 0%N (printed (mkSt [[]] []))) in HI, HB.
  assert (N0 : scopes (mkSt [[]] []) <> []) by discriminate.
  destruct (session_matches_ref p PG rfuel hfuel _ _ _ _ _ _ _ _ HR FA eq_refl N0 HI) as [-> OI].
  assert (FN : Forall (fun r : list expr => r <> []) reqs).
  { eapply Forall_impl; [|exact FA]. intros r [X _]. exact X. }
  pose proof (ref_incremental_eq_batch p rfuel vunit _ _ _ _ HR NE FN) as HC.
  assert (HRB : ref_incremental p rfuel (mkSt [[]] []) [concat reqs] = Some ([last lref vunit], sref)).
  { cbn [ref_incremental]. rewrite HC. reflexivity. }
  assert (FB : Forall input_ok [concat reqs]).
  { constructor; [|constructor]. split; [apply concat_nonempty; assumption|]. split.
    - apply forallb_concat. eapply Forall_impl; [|exact FA]. intros r (_ & X & _). exact X.
    - unfold well_annotated_toplevel. apply forallb_concat. eapply Forall_impl; [|exact FA]. intros r (_ & _ & X). exact X. }
  destruct (session_matches_ref p PG rfuel hfuel' _ _ _ _ _ _ _ _ HRB FB eq_refl N0 HB) as [-> OB].
  repeat split. congruence.
Qed.
