(* C27 -- Eval-up-to reports the value the expression takes when run.
   The statements; the work is in MachineStopProps.v and MachineStopWhole.v,
   which the proofs here only put together.  MachineStop.v (Machine.step
   extended with the stop_at_expr_id checks of `eval`) is tied to src/eval.rs
   by differential execution against `garden reftest-eval-up-to`
   (tools/props/C27.py). *)
From Coq Require Import ZArith NArith Bool List.
From Garden Require Import Base.Int64 Arith gen.Tables Machine MachineStop MachineStopProps MachineStopWhole.
Import ListNotations.
Open Scope nat_scope.

(* For ANY program and target: a run that stops by its n-th step went through
   exactly the states of the plain run for n-1 steps (iter_stop = the stop
   machine's own steps), the n-th plain step exists, and the stopped state is
   its result (for a stop at a call's return: its result without the push of
   the returned value to the caller). *)
Theorem stop_never_changes_earlier_steps : forall t p fuel ss n v ss',
  run_stop t p fuel 0 ss = TStopped n v ss' ->
  exists spre s1,
    1 <= n /\
    iter_stop t p (n - 1) ss = Some spre /\
    plain_iter p (n - 1) (base ss) = Some (base spre) /\
    step p (base spre) = Next s1 /\
    plain_iter p n (base ss) = Some s1 /\
    stop_of_plain s1 v ss' /\
    (forall i si, i <= n - 1 -> iter_stop t p i ss = Some si -> plain_iter p i (base ss) = Some (base si)).
Proof.
  intros t p fuel ss n v ss' H. apply run_stop_stopped in H. destruct H as (j & spre & -> & I & S1).
  pose proof (step_stop_spec t p spre) as P. rewrite S1 in P. destruct P as (s1 & P1 & P2 & _).
  exists spre, s1. cbn [Nat.add]. rewrite Nat.sub_1_r. cbn [Nat.pred].
  pose proof (iter_stop_plain _ _ _ _ _ I) as PI.
  repeat split; auto; [apply le_n_S, Nat.le_0_l|exact (plain_iter_last _ _ _ _ _ PI P1)|].
  intros i si _. apply iter_stop_plain.
Qed.
Print Assumptions stop_never_changes_earlier_steps.

(* PARTIAL (fragment: literals, variables, fun literals, operators, let,
   assignment, update, parentheses, if / if-else, match, list and tuple literals; the
   target itself not a parenthesised expression; stated from the step at which
   the target's evaluation begins).
   If the run with target t stops with value v by step n, and at some earlier
   step m of the plain run the machine begins to evaluate an expression e with
   span t (entry (NotEvaluated, e) on top of the continuation T, value stack
   V), then step n is the first step after m at which the continuation is T
   again (at every step m <= i < n work above T is pending), the value stack
   is then v :: V -- exactly one value pushed, the reported one -- the rest of
   the call stack is untouched, and the stopped state IS the plain run's n-th
   state. *)
Theorem stop_at_first_value_partial : forall t p fuel ss0 n v ssf m s_m e f rest T,
  run_stop t p fuel 0 ss0 = TStopped n v ssf ->
  plain_iter p m (base ss0) = Some s_m -> m < n ->
  stack s_m = f :: rest -> todo f = (SNot, e) :: T ->
  epos e = t -> eused e = true -> not_paren e -> frag t e ->
  exists f',
    stack (base ssf) = f' :: rest /\ todo f' = T /\ vals f' = v :: vals f /\
    plain_iter p n (base ss0) = Some (base ssf) /\
    (forall i, m <= i < n -> exists si, plain_iter p i (base ss0) = Some si /\ above_state T rest si).
Proof. exact stop_at_first_value. Qed.
Print Assumptions stop_at_first_value_partial.

(* Such an evaluation cannot run past its completion without stopping: it
   either fails (error / crash) while work above T is pending, or reaches the
   stop with the continuation back to T and one more value. *)
Theorem target_evaluation_completes_or_fails : forall t p e ss f rest T,
  frag t e -> epos e = t -> eused e = true -> not_paren e ->
  stack (base ss) = f :: rest -> todo f = (SNot, e) :: T ->
  reach t p T rest ss (FinFail t p T rest) \/
  reach t p T rest ss (FinStop t p T rest (callers ss) (vals f)).
Proof. exact target_evaluation. Qed.
Print Assumptions target_evaluation_completes_or_fails.

(* The hypotheses of stop_at_first_value_partial are satisfiable:
   { let y = 2  let z = (y + 1)  z * 2 }, target `y + 1`, stops with 3. *)
Example stop_at_first_value_example :
  exists n ssf s_m f rest T,
    run_stop (29, 34)%N ex_prog 100 0 (mkS (init_state ex_exprs None None) []) = TStopped n (VInt 3) ssf /\
    plain_iter ex_prog 5 (init_state ex_exprs None None) = Some s_m /\ 5 < n /\
    stack s_m = f :: rest /\ todo f = (SNot, ex_bin) :: T /\
    epos ex_bin = (29, 34)%N /\ eused ex_bin = true /\ not_paren ex_bin /\ frag (29, 34)%N ex_bin.
Proof. exact ex_hypotheses. Qed.
Print Assumptions stop_at_first_value_example.

(* The defect: with the parenthesised expression `(y + 1)` itself as the target
   (the unrepaired eval_up_to) nothing ever stops and the whole block's value 6
   is reported; looking through the parentheses (the repair) reports 3. *)
Example paren_target_runs_to_the_end :
  eval_up_to false ex_prog ex_exprs (28, 35)%N None None 100 = UValue (VInt 6) 0.
Proof. exact ex_paren_unfixed. Qed.
Print Assumptions paren_target_runs_to_the_end.

Example paren_target_repaired :
  exists n, eval_up_to true ex_prog ex_exprs (28, 35)%N None None 100 = UValue (VInt 3) n.
Proof. exact ex_paren_fixed. Qed.
Print Assumptions paren_target_repaired.

(* ------------------------------------------------------------------------ *)
(* From the initial state, for ANY program (loops, calls, closures, match,
   break / continue / return anywhere around the target).                      *)

(* History of continuation entries: in every state reachable from a start whose
   continuation entries are all NotEvaluated (e.g. init_state), every entry that
   is not NotEvaluated belongs to an expression whose evaluation BEGAN -- entry
   (NotEvaluated, e) on top of the current frame -- at an earlier step. *)
Theorem nonfresh_entries_have_begun : forall p s0,
  (forall f, In f (stack s0) -> all_fresh (todo f)) ->
  forall i s, plain_iter p i s0 = Some s -> hist_inv p s0 i s.
Proof. exact hist_run. Qed.
Print Assumptions nonfresh_entries_have_begun.

(* The corollary from the initial state.  If eval-up-to's machine, started in
   init_state, stops with v by step n, then (with stop_never_changes_earlier_steps:
   the first n-1 steps are the plain run's) EITHER
   (A) it stopped after an expression: some expression e with the target span
       began to be evaluated at a step m < n, m being the FIRST step of the run at
       which an evaluation of an expression with span t begins; and if e is in the
       fragment of stop_at_first_value_partial, step n is exactly the completion of
       that first evaluation: continuation back to T, value stack v :: V, stopped
       state = plain n-th state, work above T pending at every step in between;
   OR
   (B) it stopped at the return of a call: the call expression e = f(args) has the
       target span, the call was made at step m (entry (EvaluatedSubexpressions, e),
       exec answers XCall), from step m+1 to n-1 the callee's frames stay above the
       caller's frame f' and the frames below (all untouched), at step n-1 the
       callee's own frame fb has nothing left to do and v is its value, the
       stopped state is the caller's stack without the push, and the plain run's
       n-th step pushes exactly v onto f' (continuation td = what followed the
       call).  No restriction on the callee's body. *)
Theorem stop_from_initial_state : forall t p fuel exprs tl sl n v ssf,
  let ss0 := mkS (init_state exprs tl sl) [] in
  run_stop t p fuel 0 ss0 = TStopped n v ssf ->
  (exists m s_m f rest e T,
     m < n /\ plain_iter p m (base ss0) = Some s_m /\
     stack s_m = f :: rest /\ todo f = (SNot, e) :: T /\ epos e = t /\
     (forall m', m' < m -> begins_at t p (base ss0) m' = false) /\
     (eused e = true -> not_paren e -> frag t e ->
      exists f',
        stack (base ssf) = f' :: rest /\ todo f' = T /\ vals f' = v :: vals f /\
        plain_iter p n (base ss0) = Some (base ssf) /\
        (forall i, m <= i < n -> exists si, plain_iter p i (base ss0) = Some si /\ above_state T rest si)))
  \/
  (exists m sm fm rest e td f' callee fb spre,
     S m < n /\ iter_stop t p m ss0 = Some sm /\ plain_iter p m (base ss0) = Some (base sm) /\
     stack (base sm) = fm :: rest /\ todo fm = (SDone, e) :: td /\ epos e = t /\
     (exists mm fe args, e = ECall mm fe args /\ uses callee = used mm) /\
     exec p (set_todo fm td) SDone e = XCall f' callee /\ todo f' = td /\
     (forall j, m < j < n -> exists sj X, plain_iter p j (base ss0) = Some sj /\ stack sj = X ++ f' :: rest /\ X <> []) /\
     iter_stop t p (n - 1) ss0 = Some spre /\
     stack (base spre) = fb :: f' :: rest /\ todo fb = [] /\ (exists vs, vals fb = v :: vs) /\
     stack (base ssf) = f' :: rest /\
     (exists s_n, plain_iter p n (base ss0) = Some s_n /\ stack s_n = push_val_if (uses fb) f' v :: rest)).
Proof.
  intros t p fuel exprs tl sl n v ssf ss0 RUN.
  destruct (run_stop_stopped _ _ _ _ _ _ _ _ RUN) as (j & spre & EN & IJ & SJ). cbn [Nat.add] in EN.
  assert (IS : iter_stop t p (n - 1) ss0 = Some spre) by (subst n; rewrite Nat.sub_1_r; exact IJ).
  destruct (top_entry (base spre)) as [x|] eqn:TE.
  - left. assert (TN : top_entry (base spre) <> None) by congruence.
    destruct (entry_stop_began t p fuel ss0 n v ssf spre (init_fresh exprs tl sl) RUN IS TN)
      as (m & s_m & f & rest & e & T & L & PM & ST & TD & PE & MIN).
    exists m, s_m, f, rest, e, T. repeat split; auto.
    intros UE NP FRG. eapply stop_at_first_value; eauto.
  - right.
    destruct (return_stop_is_call_completion t p fuel ss0 n v ssf spre eq_refl RUN IS TE)
      as (m & sm & fm & rest & e & td & f' & callee & fb & A1 & A2 & A3 & A4 & A5 & A6 & A7 & A8 & A9 & A10 & B).
    exists m, sm, fm, rest, e, td, f', callee, fb, spre. repeat (split; [assumption|]). exact B.
Qed.
Print Assumptions stop_from_initial_state.

(* (B) on its own, from any start with a single frame *)
Theorem call_target_stops_at_return : forall t p fuel ss0 n v ssf spre,
  depth ss0 = 1 ->
  run_stop t p fuel 0 ss0 = TStopped n v ssf ->
  iter_stop t p (n - 1) ss0 = Some spre -> top_entry (base spre) = None ->
  exists m sm fm rest e td f' callee fb,
    S m < n /\ iter_stop t p m ss0 = Some sm /\ plain_iter p m (base ss0) = Some (base sm) /\
    stack (base sm) = fm :: rest /\ todo fm = (SDone, e) :: td /\ epos e = t /\
    (exists mm fe args, e = ECall mm fe args /\ uses callee = used mm) /\
    exec p (set_todo fm td) SDone e = XCall f' callee /\ todo f' = td /\
    (forall j, m < j < n -> exists sj X, plain_iter p j (base ss0) = Some sj /\ stack sj = X ++ f' :: rest /\ X <> []) /\
    stack (base spre) = fb :: f' :: rest /\ todo fb = [] /\ (exists vs, vals fb = v :: vs) /\
    stack (base ssf) = f' :: rest /\
    (exists s_n, plain_iter p n (base ss0) = Some s_n /\ stack s_n = push_val_if (uses fb) f' v :: rest).
Proof. exact return_stop_is_call_completion. Qed.
Print Assumptions call_target_stops_at_return.

(* satisfiable: fun f(x) { x + 1 }  f(2), target the call: stops with 3, the
   toplevel frame is left without the pushed value *)
Example call_target_example : exists n ssf,
  run_stop (19, 23)%N exc_prog 100 0 (mkS (init_state [exc_call] None None) []) = TStopped n (VInt 3) ssf /\
  stack (base ssf) = [mkFrame [] [vunit] [[]] [] true].
Proof. exact exc_stops. Qed.
Print Assumptions call_target_example.

(* A `for` loop as the target (the special case in `eval`): with the iterated
   expression in the fragment, the machine either fails while evaluating it or
   stops with Unit right after the step that enters the first iteration (or,
   for an empty list, ends the loop); in the stopped state the loop variable is
   bound to the first element, which is what eval_up_to reports. *)
Theorem for_target_stops_in_first_iteration : forall t p m x it body ss f rest T,
  frag t it -> eused it = true -> epos it <> t -> epos (EFor m x it body) = t ->
  stack (base ss) = f :: rest -> todo f = (SNot, EFor m x it body) :: T ->
  reach t p T rest ss (FinFail t p T rest) \/
  reach t p T rest ss (fun pre => above T rest pre /\
    exists f2 itv f3 pr ss',
      stack (base pre) = f2 :: rest /\ todo f2 = (SPart BWill, EFor m x it body) :: T /\
      vals f2 = itv :: VInt 0 :: vals f /\
      exec p (set_todo f2 T) (SPart BWill) (EFor m x it body) = XOk f3 pr /\
      step_stop t p pre = OStopped vunit ss' /\ stack (base ss') = f3 :: rest /\ callers ss' = callers ss /\
      (forall elem items, itv = VList (elem :: items) -> N.eqb x underscore = false ->
         get_var p f3 x = Some elem)).
Proof. exact MachineStopWhole.for_target_stops_in_first_iteration. Qed.
Print Assumptions for_target_stops_in_first_iteration.

Example for_target_example : exists n, eval_up_to true ex_prog [exf] (0, 20)%N None None 100 = UValue (VInt 1) n.
Proof. exact exf_reports. Qed.
Print Assumptions for_target_example.
