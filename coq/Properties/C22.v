(* C22 -- `check --fix` edits are safe.
   Only statements here; definitions are in Fixes.v (model of apply_fixes in src/syntax_check.rs and of
   get_line_position in src/checks/unused_literals.rs), proofs in FixesProps.v, which also defines the
   predicate `wf_in` and the `ex_*` examples the statements use.

   Sources are lists of Unicode scalar values; offsets are BYTE offsets into the UTF-8 encoding; `None` is a
   panic (slice off a character boundary or past the end).  `spliced s 0 fs out` is the specification: out is s
   with every region of the ascending edit list fs replaced by the edit's text and every other byte kept.

   What is NOT a theorem: that the offsets the lints compute denote the intended syntax, that the result parses
   and runs the same, that `--fix` converges.  Those are searched for on the real binary (tools/props/C22.py).
   The last block of lemmas is over a tiny block/boolean model, not over Machine.v (hence `_partial`). *)
From Coq Require Import NArith Bool List.
From Garden Require Import Base.Utf Fixes FixesProps.
Import ListNotations.
Open Scope N_scope.

(* For every source and every fix list in the order the code applies it (descending start) in which each fix has
   start <= end <= len and the next fix ends at or before this one's start: applying the fixes one after the
   other as the code does is the simultaneous splice -- whenever it does not panic, and it does not panic when
   every offset is a character boundary. *)
Theorem apply_fixes_splice : forall s l, chain (blen s) l ->
  (forall out, apply_seq s l = Some out -> spliced s 0 (rev l) out) /\
  (on_boundaries s l -> exists out, apply_seq s l = Some out /\ spliced s 0 (rev l) out).
Proof. exact apply_fixes_splice_lemma. Qed.
Print Assumptions apply_fixes_splice.

Example apply_fixes_splice_example :
  chain (blen ex_src) ex_fixes /\ on_boundaries ex_src ex_fixes /\
  apply_seq ex_src ex_fixes = Some [97; 98; 120; 100] /\
  apply_seq ex_src [mkfix 2 3 []] = None.
Proof. exact apply_fixes_splice_example_lemma. Qed.
Print Assumptions apply_fixes_splice_example.

(* The hypothesis is decidable (`chainb` is extracted with the model; no driver calls it). *)
Theorem chain_decided : forall l bound, chainb bound l = true <-> chain bound l.
Proof. exact chainb_chain. Qed.
Print Assumptions chain_decided.

(* The hypothesis is needed: the code before the repair (one flat list, no overlap handling) loses text outside
   every fix region, deletes twice, or panics when fixes overlap; the repaired code does not. *)
Theorem apply_fixes_overlap_refuted :
  let s := [97; 98; 99; 100; 101; 102] in
  let nested := [mkfix 1 4 []; mkfix 2 3 []] in
  let twice := [mkfix 0 2 []; mkfix 0 2 []] in
  chainb (blen s) (sort_desc nested) = false /\
  apply_fixes_orig s nested = Some [97; 102] /\
  apply_fixes_orig [97; 98; 99] twice = None /\
  apply_fixes_orig s twice = Some [101; 102] /\
  apply_fixes s [[mkfix 1 4 []]; [mkfix 2 3 []]] = Some [97; 101; 102] /\
  apply_fixes s [[mkfix 0 2 []]; [mkfix 0 2 []]] = Some [99; 100; 101; 102].
Proof. exact apply_fixes_overlap_refuted_lemma. Qed.
Print Assumptions apply_fixes_overlap_refuted.

(* The repaired apply_fixes, for ANY list of fix groups whose fixes lie inside the source (overlapping or not):
   the fixes it selects form a chain, were all offered, and its result is their simultaneous splice; no panic
   when the selected offsets are character boundaries. *)
Theorem apply_fixes_total : forall s groups,
  Forall (Forall (wf_in (blen s))) groups ->
  let sel := select groups in
  chain (blen s) sel /\ incl sel (concat groups) /\
  (forall out, apply_fixes s groups = Some out -> spliced s 0 (rev sel) out) /\
  (on_boundaries s sel -> exists out, apply_fixes s groups = Some out).
Proof. exact apply_fixes_total_lemma. Qed.
Print Assumptions apply_fixes_total.

Example apply_fixes_total_example :
  Forall (Forall (wf_in (blen ex_src))) ex_groups /\
  select ex_groups = ex_fixes /\ on_boundaries ex_src (select ex_groups) /\
  apply_fixes ex_src ex_groups = Some [97; 98; 120; 100].
Proof. exact apply_fixes_total_example_lemma. Qed.
Print Assumptions apply_fixes_total_example.

(* The fixes of one diagnostic are taken together or not at all. *)
Theorem fix_group_atomic : forall acc g, add_group acc g = acc \/ (forall x, In x g -> In x (add_group acc g)).
Proof. exact add_group_atomic. Qed.
Print Assumptions fix_group_atomic.

(* Unused literal at bytes [a, b): the span the repaired get_line_position returns is
   pre ++ literal ++ post with pre and post whitespace only -- for all sources. *)
Theorem line_removal_only_removes_that_statement : forall src a b s e, a <= b ->
  line_removal src a b = Some (s, e) ->
  exists before pre lit post after,
    src = before ++ pre ++ lit ++ post ++ after /\
    blen before = s /\ blen (before ++ pre) = a /\ blen (before ++ pre ++ lit) = b /\
    blen (before ++ pre ++ lit ++ post) = e /\
    all_ws pre = true /\ all_ws post = true.
Proof. exact line_removal_lemma. Qed.
Print Assumptions line_removal_only_removes_that_statement.

Example line_removal_example :
  line_removal [123; 10; 32; 32; 49; 10; 32; 32; 50; 125] 4 5 = Some (2, 6) /\
  line_removal [123; 32; 49; 32; 50; 32; 125] 2 3 = Some (2, 3).
Proof. exact line_removal_example_lemma. Qed.
Print Assumptions line_removal_example.

(* Before the repair: `1 println("hi")\n` -- the deleted span contains `println("hi")`. *)
Theorem line_removal_orig_refuted :
  let src := [49; 32; 112; 114; 105; 110; 116; 108; 110; 40; 34; 104; 105; 34; 41; 10] in
  line_removal_orig src 0 1 = Some (0, 16) /\
  (exists post, slice src 1 16 = Some post /\ all_ws post = false) /\
  line_removal src 0 1 = Some (0, 1).
Proof. exact line_removal_orig_refuted_lemma. Qed.
Print Assumptions line_removal_orig_refuted.

(* ---- per-lint semantics on a tiny model (partial: not tied to the evaluator model) ---- *)

(* repeated_bool: deleting operands already seen in a chain of pure operands keeps its value *)
Theorem repeated_bool_or_partial : forall env l, or_chain env (dedup_first [] l) = or_chain env l.
Proof. exact repeated_bool_or_lemma. Qed.
Print Assumptions repeated_bool_or_partial.

Theorem repeated_bool_and_partial : forall env l, and_chain env (dedup_first [] l) = and_chain env l.
Proof. exact repeated_bool_and_lemma. Qed.
Print Assumptions repeated_bool_and_partial.

(* unused literal: dropping a literal statement that is not last keeps the block's value and output ... *)
Theorem drop_unused_literal_partial : forall pre v post last env out, post <> [] ->
  run_block (pre ++ SLit v :: post) last env out = run_block (pre ++ post) last env out.
Proof. exact drop_unused_literal_lemma. Qed.
Print Assumptions drop_unused_literal_partial.

(* ... and dropping the last one does not *)
Theorem drop_last_literal_refuted : exists pre v last env out,
  run_block (pre ++ [SLit v]) last env out <> run_block pre last env out.
Proof. exact drop_last_literal_refuted_lemma. Qed.
Print Assumptions drop_last_literal_refuted.

(* unnecessary let: `let x = e  x` at the end of a block is `e` *)
Theorem unnecessary_let_partial : forall pre x e last env out,
  run_block (pre ++ [SLet x e; SVar x]) last env out = run_block (pre ++ [SExpr e]) last env out.
Proof. exact unnecessary_let_lemma. Qed.
Print Assumptions unnecessary_let_partial.

(* unused variable: removing `let x =` from the LAST statement of a block changes the block's value
   (the defect found: `fun f(): Unit { let x = 1 }`); the repaired lint renames instead *)
Theorem unused_let_tail_refuted : exists x e last env out,
  run_block [SLet x e] last env out <> run_block [SExpr e] last env out.
Proof. exact unused_let_tail_refuted_lemma. Qed.
Print Assumptions unused_let_tail_refuted.
