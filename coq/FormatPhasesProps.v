(* The segments of FormatPhases.v partition the source.  Phases 7 and 8 are
   idempotent as functions on segments (both code versions), phase 7 finds nothing to do after phase 8; phase 6 is idempotent
   on annotated lines because its outputs are in a normal form it leaves alone.
   As functions on text the phases lex their own output again: on a source
   without unclosed string, the kinds of change phases 7 and 8 make to a gap
   (gaprw) leave every token step and every gap step what it was, so the
   segments found in the output are the rewritten segments (on_segs_good), and
   idempotence on segments carries over to text. *)
From Coq Require Import NArith Bool List Lia ZifyBool.
From Garden Require Import Base.Utf Lex LexProps EditAlgebra EditAlgebraProps FormatPhases.
Import ListNotations.
Open Scope N_scope.

Lemma render_push_gap : forall t r, render (fst (push_gap t r)) (snd (push_gap t r)) = t ++ render (fst r) (snd r).
Proof.
  intros t [[|[g tk] l] tr]; cbn [push_gap fst snd render]; [reflexivity|]. now rewrite <- app_assoc.
Qed.

Lemma segs_go_render : forall f s r, segs_go f s = Some r -> render (fst r) (snd r) = s.
Proof.
  induction f as [|f IH]; intros s r H; [discriminate|]. cbn [segs_go] in H.
  destruct s as [|c s']; [injection H as <-; reflexivity|].
  destruct (kstep (c :: s')) as [[k t]|] eqn:Ek; [|discriminate].
  destruct (kstep_prefix _ _ _ Ek) as (rest & Es & Ht).
  destruct (segs_go f (skipn (length t) (c :: s'))) as [r0|] eqn:E0; [|discriminate].
  pose proof (IH _ _ E0) as R0. rewrite Es, skipn_app_len in R0.
  destruct k; injection H as <-; rewrite ?render_push_gap; cbn [fst snd render app]; rewrite R0; now rewrite Es.
Qed.

Lemma segs_of_render : forall s l tr, segs_of s = Some (l, tr) -> render l tr = s.
Proof. intros s l tr H. exact (segs_go_render _ _ _ H). Qed.

(* how a gap in front of the token tk may change: not at all; whitespace into
   whitespace, emptied only in front of a token that starts with a char no token
   can absorb; one more space in front *)
Inductive gaprw (tk : list N) : list N -> list N -> Prop :=
| rw_same : forall g, gaprw tk g g
| rw_ws : forall w w', all_ws w = true -> all_ws w' = true ->
    (w' = [] -> w <> [] -> stopt tk = true) -> gaprw tk w w'
| rw_ins : forall g, gaprw tk g (32 :: g).

Inductive segsrw : list seg -> list seg -> Prop :=
| srw_nil : segsrw [] []
| srw_cons : forall g g' tk r r', gaprw tk g g' -> segsrw r r' -> segsrw ((g, tk) :: r) ((g', tk) :: r').

Lemma segsrw_tokens : forall l l', segsrw l l' -> map snd l' = map snd l.
Proof. intros l l' R. induction R as [|g g' tk r r' _ _ IH]; [reflexivity|]. cbn [map snd]. now rewrite IH. Qed.

(* Phases 7 and 8 have one shape: the first segment is kept; the others are walked
   with a context c (what is remembered of the tokens passed), each gap is
   rewritten by f c <next token> and the context moves on. *)
Section GapPhase.
  Variables (C : Type) (f : C -> list N -> list N -> list N) (next : C -> list N -> C) (init : list N -> C).
  Variables (go : C -> list seg -> list seg) (phase : list seg -> list seg).
  Hypothesis go_nil : forall c, go c [] = [].
  Hypothesis go_cons : forall c g t r, go c ((g, t) :: r) = (f c t g, t) :: go (next c t) r.
  Hypothesis phase_eq : forall l, phase l = match l with [] => [] | (g, t) :: r => (g, t) :: go (init t) r end.

  Lemma gap_phase_idem : (forall c t g, f c t (f c t g) = f c t g) -> forall l, phase (phase l) = phase l.
  Proof.
    intro Hf. assert (G : forall l c, go c (go c l) = go c l).
    { induction l as [|[g t] r IH]; intro c; [now rewrite !go_nil|]. now rewrite !go_cons, Hf, IH. }
    intros [|[g t] r]; rewrite !phase_eq; [reflexivity|]. now rewrite G.
  Qed.

  Lemma gap_phase_rw : (forall c t g, gaprw t g (f c t g)) -> forall l, segsrw l (phase l).
  Proof.
    intro Hf. assert (G : forall l c, segsrw l (go c l)).
    { induction l as [|[g t] r IH]; intro c; [rewrite go_nil|rewrite go_cons]; constructor; [apply Hf|apply IH]. }
    intros [|[g t] r]; rewrite phase_eq; constructor; [constructor|apply G].
  Qed.
End GapPhase.

Lemma new_gap8_idem : forall strict p n g,
  new_gap8 strict p n (new_gap8 strict p n g) = new_gap8 strict p n g.
Proof.
  intros strict p n g. unfold new_gap8. destruct (rewritable8 strict g) eqn:R; [|now rewrite R].
  destruct (desired8 p n) as [d|]; [|now rewrite R]. now destruct (rewritable8 strict d).
Qed.

Lemma phase8_segs_idem_lemma : forall strict l, phase8_segs strict (phase8_segs strict l) = phase8_segs strict l.
Proof.
  intro strict. apply (gap_phase_idem _ (new_gap8 strict) (fun _ t => t) (fun t => t) (phase8_go strict)); try reflexivity.
  intros. apply new_gap8_idem.
Qed.

Lemma new_gap7_idem : forall pp p n g, new_gap7 pp p n (new_gap7 pp p n g) = new_gap7 pp p n g.
Proof.
  intros pp p n g. unfold new_gap7.
  destruct (teq p T_COLON && negb (teq n T_COLON)
            && negb match pp with Some x => teq x T_COLON | None => false end
            && likely_type n && head_not_ws (g ++ n)) eqn:C; [|now rewrite C].
  (* the gap starts with the space just put in *)
  cbn [app head_not_ws]. change (is_whitespace 32) with true. cbn [negb]. now rewrite andb_false_r.
Qed.

(* phase 7 carries the token before the previous one along: its context is the pair *)
Definition phase7_ctx : Type := option (list N) * list N.

Lemma phase7_segs_idem_lemma : forall l, phase7_segs (phase7_segs l) = phase7_segs l.
Proof.
  apply (gap_phase_idem phase7_ctx (fun c => new_gap7 (fst c) (snd c)) (fun c t => (Some (snd c), t)) (fun t => (None, t))
                        (fun c => phase7_go (fst c) (snd c))); try reflexivity.
  intros. apply new_gap7_idem.
Qed.

Lemma desired8_colon_type : forall p n, teq p T_COLON = true -> likely_type n = true -> desired8 p n = None.
Proof.
  intros p n Hp Hn. apply list_eqb_eq in Hp. subst p.
  destruct n as [|c r]; [discriminate|]. cbn [likely_type] in Hn.
  assert (N1 : forall x r', teq (c :: r) (x :: r') = true -> x = c).
  { intros x r' E. apply list_eqb_eq in E. now injection E. }
  assert (F : forall x r', x <> c -> teq (c :: r) (x :: r') = false).
  { intros x r' Hx. destruct (teq (c :: r) (x :: r')) eqn:E; [|reflexivity]. now apply N1 in E. }
  unfold desired8, tmem, T_COMMA, T_ARROW, T_PLUS_EQ, T_MINUS_EQ. cbn [existsb].
  rewrite (F 44), (F 61), (F 43), (F 45) by (intros <-; discriminate Hn). reflexivity.
Qed.

Lemma new_gap7_after_8 : forall strict pp p n g,
  new_gap7 pp p n (new_gap8 strict p n (new_gap7 pp p n g)) = new_gap8 strict p n (new_gap7 pp p n g).
Proof.
  intros strict pp p n g.
  destruct (teq p T_COLON && likely_type n) eqn:TC.
  - apply andb_prop in TC as [Hp Hn].
    assert (E8 : forall x, new_gap8 strict p n x = x).
    { intro x. unfold new_gap8. rewrite (desired8_colon_type p n Hp Hn). now destruct (rewritable8 strict x). }
    rewrite E8. apply new_gap7_idem.
  - assert (E7 : forall x, new_gap7 pp p n x = x).
    { intro x. unfold new_gap7. apply andb_false_iff in TC as [Hp|Hn].
      - now rewrite Hp.
      - rewrite Hn. now rewrite !andb_false_r. }
    now rewrite !E7.
Qed.

Lemma phase7_go_after_8 : forall strict l pp p,
  phase7_go pp p (phase8_go strict p (phase7_go pp p l)) = phase8_go strict p (phase7_go pp p l).
Proof.
  induction l as [|[g t] r IH]; intros pp p; [reflexivity|]. cbn [phase7_go phase8_go].
  now rewrite new_gap7_after_8, IH.
Qed.

Lemma phase7_after_8_lemma : forall strict l,
  phase7_segs (phase8_segs strict (phase7_segs l)) = phase8_segs strict (phase7_segs l).
Proof.
  intros strict [|[g t] r]; [reflexivity|]. cbn [phase7_segs phase8_segs]. now rewrite phase7_go_after_8.
Qed.

Definition phase78_segs (strict : bool) (l : list seg) : list seg := phase8_segs strict (phase7_segs l).

Lemma phase78_segs_idem_lemma : forall strict l, phase78_segs strict (phase78_segs strict l) = phase78_segs strict l.
Proof.
  intros strict l. unfold phase78_segs. rewrite phase7_after_8_lemma. apply phase8_segs_idem_lemma.
Qed.

(* lines that p6a leaves as they are (nf_fixed): a blank line is exactly empty_line and a non-blank line follows
   it; no line that triggers insertion follows a non-blank line *)
Fixpoint nf (l : list aline) : bool :=
  match l with
  | [] => true
  | a :: rest =>
    if blank a then
      match a with mkaline [] false false => true | _ => false end
      && match rest with [] => false | n :: _ => negb (blank n) end
      && nf rest
    else
      match rest with n :: _ => negb (ins_cond a n) | [] => true end && nf rest
  end.

Lemma p6a_pending_nonblank : forall n r, blank n = false ->
  p6a (n :: r) true = empty_line :: p6a (n :: r) false.
Proof. intros n r H. cbn [p6a]. rewrite H. reflexivity. Qed.

Lemma nf_fixed : forall l, nf l = true -> p6a l false = l.
Proof.
  induction l as [|a rest IH]; intro H; [reflexivity|]. cbn [nf] in H. cbn [p6a].
  destruct (blank a) eqn:B.
  - apply andb_prop in H as [H Hr]. apply andb_prop in H as [Ha Hn].
    destruct rest as [|n r]; [discriminate|]. apply negb_true_iff in Hn.
    rewrite (p6a_pending_nonblank n r Hn), (IH Hr).
    destruct a as [[|? ?] [|] [|]]; try discriminate. reflexivity.
  - apply andb_prop in H as [Hc Hr]. cbn [app]. rewrite (IH Hr).
    destruct rest as [|n r]; [reflexivity|]. apply negb_true_iff in Hc. now rewrite Hc.
Qed.

Lemma blank_empty : blank empty_line = true.
Proof. reflexivity. Qed.

Lemma ins_cond_empty : forall a, ins_cond a empty_line = false.
Proof. reflexivity. Qed.

Lemma p6a_pending_head : forall r, p6a r true = [] \/ exists Y, p6a r true = empty_line :: Y.
Proof.
  induction r as [|a r IH]; [now left|]. cbn [p6a]. destruct (blank a); [exact IH|].
  right. eexists. reflexivity.
Qed.

Lemma ins_cond_nonblank : forall a n, ins_cond a n = true -> blank n = false.
Proof.
  intros a n H. unfold ins_cond in H. apply andb_prop in H as [H _]. apply andb_prop in H as [H _].
  apply andb_prop in H as [H _]. apply negb_true_iff in H. unfold blank. now rewrite H.
Qed.

Lemma nf_cons_empty : forall a X, blank a = false -> nf (a :: X) = true -> nf (empty_line :: a :: X) = true.
Proof.
  intros a X B H. change (nf (empty_line :: a :: X)) with
    (match empty_line with mkaline [] false false => true | _ => false end && negb (blank a) && nf (a :: X)).
  rewrite B, H. reflexivity.
Qed.

Lemma nf_p6a : forall ls p, nf (p6a ls p) = true.
Proof.
  induction ls as [|a rest IH]; intro p; [reflexivity|]. cbn [p6a].
  destruct (blank a) eqn:B; [apply IH|].
  assert (Main : nf (a :: (match rest with n :: _ => if ins_cond a n then [empty_line] else [] | [] => [] end)
                        ++ p6a rest false) = true).
  { cbn [nf]. rewrite B. destruct rest as [|n r]; [reflexivity|].
    destruct (ins_cond a n) eqn:C.
    - cbn [app]. rewrite ins_cond_empty. cbn [negb andb nf]. rewrite blank_empty.
      pose proof (ins_cond_nonblank a n C) as Bn.
      pose proof (IH false) as Hr. cbn [p6a] in Hr |- *. rewrite Bn in Hr |- *. cbn [app] in Hr |- *.
      rewrite Bn. cbn [negb andb]. exact Hr.
    - cbn [app]. pose proof (IH false) as Hr. rewrite Hr, andb_true_r.
      cbn [p6a]. destruct (blank n) eqn:Bn.
      + destruct (p6a_pending_head r) as [E|(Y & E)]; rewrite E; [reflexivity|]. now rewrite ins_cond_empty.
      + cbn [app]. now rewrite C. }
  destruct p; [|exact Main].
  cbn [app]. now apply nf_cons_empty.
Qed.

Lemma p6a_idem_lemma : forall ls, p6a (p6a ls false) false = p6a ls false.
Proof. intro ls. apply nf_fixed, nf_p6a. Qed.

Lemma symbol_re_none_down : forall u A, u <> [] -> symbol_re (u ++ A) = None -> symbol_re u = None.
Proof.
  intros [|x u] A Hu H; [congruence|]. cbn [app symbol_re] in *. now destruct (is_sym_start x).
Qed.

Lemma string_body_nonempty : forall s, s <> [] -> string_body true s <> [].
Proof.
  intros [|c r] H; [congruence|]. cbn [string_body]. destruct (c =? QUOTE); [discriminate|].
  destruct (c =? BACKSLASH); [|discriminate]. destruct r as [|d r']; [discriminate|].
  destruct (negb (d =? LF)); discriminate.
Qed.

(* the converse of closed_body_go_scan, when some text Y follows: the scan cannot
   have ended at the end of the text *)
Lemma string_body_exact_closed : forall n b Y, (length b <= n)%nat -> Y <> [] ->
  string_body true (b ++ Y) = b -> closed_body_go (S n) b = true.
Proof.
  induction n as [|n IH]; intros b Y L HY H.
  - destruct b; [|cbn [length] in L; lia]. cbn [app] in H. now apply string_body_nonempty in H.
  - destruct b as [|c b']; [cbn [app] in H; now apply string_body_nonempty in H|].
    cbn [length] in L. cbn [app string_body] in H. cbn [closed_body_go].
    destruct (N.eqb_spec c QUOTE) as [->|Hq].
    + injection H as H. now subst b'.
    + destruct (c =? BACKSLASH).
      * destruct b' as [|d b''].
        -- cbn [app] in H. destruct Y as [|y r]; [congruence|].
           destruct (negb (y =? LF)); injection H as H; [discriminate|].
           destruct (y =? QUOTE); [discriminate|]. destruct (y =? BACKSLASH); [|discriminate].
           destruct r as [|d r']; [discriminate|]. destruct (negb (d =? LF)); discriminate.
        -- cbn [app] in H. cbn [length] in L. destruct (negb (d =? LF)).
           ++ injection H as H. apply (IH b'' Y); [lia|exact HY|exact H].
           ++ injection H as H. change (d :: b'' ++ Y) with ((d :: b'') ++ Y) in H.
              apply (IH (d :: b'') Y); [cbn [length]; lia|exact HY|exact H].
      * injection H as H. apply (IH b' Y); [lia|exact HY|exact H].
Qed.

Lemma kstep_quote : forall rest,
  kstep (QUOTE :: rest) =
  if ends_with_quote (QUOTE :: string_body true rest) then Some (KToken, QUOTE :: string_body true rest)
  else Some (KErrToken, before_lf (QUOTE :: string_body true rest)).
Proof. intros [|y r]; unfold kstep; reflexivity. Qed.

Lemma token_followed_ok : forall t Y, Y <> [] -> kstep (t ++ Y) = Some (KToken, t) -> step_ok_k KToken t = true.
Proof.
  intros t Y HY H. cbn [step_ok_k]. destruct t as [|c b]; [reflexivity|].
  destruct (c =? QUOTE) eqn:Ec; [|reflexivity]. apply N.eqb_eq in Ec. subst c.
  cbn [app] in H. rewrite kstep_quote in H.
  destruct (ends_with_quote (QUOTE :: string_body true (b ++ Y))); [|discriminate].
  injection H as H. unfold closed_body. exact (string_body_exact_closed (length b) b Y (le_n _) HY H).
Qed.

Lemma kstep_comment_iff : forall s t,
  kstep s = Some (KComment, t) <-> starts_with2 SLASH SLASH s = true /\ t = upto_lf s.
Proof.
  intros s t. unfold kstep. destruct (starts_with2 SLASH SLASH s).
  { split; [now intros [= <-]|now intros [_ ->]]. }
  split; [|now intros [H _]].
  destruct s as [|c r]; [discriminate|]. destruct (is_whitespace c); [discriminate|].
  destruct (existsb _ two_char_tokens); [destruct r; discriminate|].
  destruct (float_re (c :: r)); [discriminate|]. destruct (integer_re (c :: r)); [discriminate|].
  destruct (existsb _ one_char_tokens); [discriminate|].
  destruct (string_re true (c :: r)) as [x|]; [destruct (ends_with_quote x); discriminate|].
  destruct (symbol_re (c :: r)); discriminate.
Qed.

Definition gapk (k : kind) : bool := match k with KSkip | KErr | KComment => true | _ => false end.

Lemma upto_lf_strict : forall u d A, (length (upto_lf (u ++ d :: A)) <= length u)%nat ->
  ends_lf (upto_lf (u ++ d :: A)) = true.
Proof.
  induction u as [|x u IH]; intros d A L.
  - cbn [app length] in L. cbn [upto_lf] in L. destruct (d =? LF); cbn [length] in L; lia.
  - cbn [app upto_lf] in *. destruct (x =? LF) eqn:Ex; [reflexivity|]. cbn [length] in L.
    assert (Ht : ends_lf (upto_lf (u ++ d :: A)) = true) by (apply IH; lia).
    cbn [ends_lf]. destruct (upto_lf (u ++ d :: A)); [discriminate Ht|exact Ht].
Qed.

(* when something follows, a comment step ended at its line feed and not with the text *)
Lemma gapstep_ok : forall u d A k t, kstep (u ++ d :: A) = Some (k, t) -> gapk k = true ->
  (length t <= length u)%nat -> step_ok_k k t = true.
Proof.
  intros u d A k t H G L. destruct k; try discriminate G; try reflexivity.
  apply kstep_comment_iff in H as [_ ->]. now apply upto_lf_strict.
Qed.

(* g is consumed by gap steps when X follows it *)
Inductive gaprun : list N -> list N -> Prop :=
| gr_nil : forall X, gaprun [] X
| gr_step : forall k t g X, kstep ((t ++ g) ++ X) = Some (k, t) -> gapk k = true ->
    gaprun g X -> gaprun (t ++ g) X.

Lemma stop_outside : forall c, c <= 32 \/ 127 <= c -> stop c = true.
Proof.
  intros c H. unfold stop, is_sym_char, is_sym_start, is_digit, pair_second, DOT, UNDERSCORE. cbn [existsb]. lia.
Qed.

Lemma stop_32 : stop 32 = true.
Proof. reflexivity. Qed.

Lemma ws_stop : forall c, is_whitespace c = true -> stop c = true.
Proof. intros c W. apply stop_outside. unfold is_whitespace in W. lia. Qed.

(* the decomposition (l, tr) is the one the lexer finds, and no token is an
   unclosed string *)
Fixpoint good (l : list seg) (tr : list N) : Prop :=
  match l with
  | [] => gaprun tr []
  | (g, t) :: r =>
    gaprun g (t ++ render r tr) /\ t <> [] /\ kstep (t ++ render r tr) = Some (KToken, t) /\ good r tr
  end.

Lemma all_ws_head_stop : forall c w, all_ws (c :: w) = true -> stop c = true.
Proof. intros c w H. cbn [all_ws forallb] in H. apply andb_prop in H as [H _]. now apply ws_stop. Qed.

(* kstep_local against a rewritten tail. u <> []: the step starts in u; length t <= length u:
   it ends there, the tail is only looked ahead at; step_ok_k: where it ends does not hang on
   the tail (no unclosed string, a comment ended by its line feed) *)
Lemma step_tail_rw : forall l l', segsrw l l' -> forall tr, good l tr ->
  forall u k t, u <> [] -> kstep (u ++ render l tr) = Some (k, t) ->
  (length t <= length u)%nat -> step_ok_k k t = true ->
  kstep (u ++ render l' tr) = Some (k, t).
Proof.
  intros l l' R. induction R as [|g g' tk r r' Hg R IH]; intros tr G u k t Hu H L Hok; [exact H|].
  cbn [good] in G. destruct G as (_ & Htk & _ & Gr). cbn [render] in H |- *.
  (* the gap stays: the text looked at grows by it and by the next token *)
  assert (Same : g' = g -> kstep (u ++ g' ++ tk ++ render r' tr) = Some (k, t)).
  { intros ->. rewrite !app_assoc in *. apply (IH tr Gr); [|exact H|rewrite !app_length; lia|exact Hok].
    destruct u; [congruence|discriminate]. }
  assert (Glue : glue_free (g ++ tk ++ render r tr) (g' ++ tk ++ render r' tr) ->
                 kstep (u ++ g' ++ tk ++ render r' tr) = Some (k, t)).
  { intro F. exact (kstep_local u _ _ k t Hu F H L Hok). }
  destruct Hg as [g|w w' Hw Hw' Hc|g].
  - now apply Same.
  - destruct w' as [|c' w0'].
    + destruct w as [|c w0]; [now apply Same|]. apply Glue. left.
      destruct tk as [|d tk0]; [congruence|]. apply Hc; [reflexivity|discriminate].
    + apply Glue. left. exact (all_ws_head_stop c' w0' Hw').
  - apply Glue. now left.
Qed.

Lemma gaprun_tail : forall r r', segsrw r r' -> forall tr, good r tr -> forall g tk, tk <> [] ->
  gaprun g (tk ++ render r tr) -> gaprun g (tk ++ render r' tr).
Proof.
  intros r r' R tr G g tk Htk H. remember (tk ++ render r tr) as X eqn:EX. revert EX.
  induction H as [X|k t g X Hk Gk Hr IH]; intro EX; [constructor|]. subst X.
  apply (gr_step k); [|exact Gk|now apply IH].
  assert (Ok : step_ok_k k t = true).
  { destruct tk as [|d tk0]; [congruence|]. apply (gapstep_ok (t ++ g) d _ k t Hk Gk). rewrite app_length. lia. }
  rewrite app_assoc in *. apply (step_tail_rw r r' R tr G); [|exact Hk|rewrite !app_length; lia|exact Ok].
  destruct tk; [congruence|]. now destruct (t ++ g).
Qed.

Lemma gaprun_ws : forall w X, all_ws w = true -> gaprun w X.
Proof.
  induction w as [|c w IH]; intros X H; [constructor|].
  cbn [all_ws forallb] in H. apply andb_prop in H as [Hc Hw].
  change (c :: w) with ([c] ++ w). apply (gr_step KSkip); [|reflexivity|now apply IH].
  cbn [app]. apply kstep_ws. exact Hc.
Qed.

Lemma gaprun_rw : forall tk g g' r r' tr, gaprw tk g g' -> tk <> [] -> segsrw r r' -> good r tr ->
  gaprun g (tk ++ render r tr) -> gaprun g' (tk ++ render r' tr).
Proof.
  intros tk g g' r r' tr Rg Htk R G H. pose proof (gaprun_tail r r' R tr G g tk Htk H) as T.
  destruct Rg as [g|w w' Hw Hw' _|g].
  - exact T.
  - now apply gaprun_ws.
  - change (32 :: g) with ([32] ++ g). apply (gr_step KSkip); [|reflexivity|exact T].
    cbn [app]. now apply kstep_ws.
Qed.

Lemma render_cons_nonempty : forall g t r tr, t <> [] -> render ((g, t) :: r) tr <> [].
Proof.
  intros g t r tr Ht E. cbn [render] in E. apply app_eq_nil in E as [_ E]. apply app_eq_nil in E as [E _]. congruence.
Qed.

Lemma good_rw : forall l l', segsrw l l' -> forall tr, good l tr -> good l' tr.
Proof.
  intros l l' R. induction R as [|g g' tk r r' Hg R IH]; intros tr G; [exact G|].
  cbn [good] in G |- *. destruct G as (Gg & Htk & Ktk & Gr).
  split; [exact (gaprun_rw tk g g' r r' tr Hg Htk R Gr Gg)|]. split; [exact Htk|]. split; [|exact (IH tr Gr)].
  destruct R as [|g2 g2' tk2 r2 r2' Hg2 R2]; [exact Ktk|].
  assert (Ht2 : tk2 <> []) by (cbn [good] in Gr; tauto).
  assert (Ok : step_ok_k KToken tk = true).
  { apply (token_followed_ok tk _ (render_cons_nonempty g2 tk2 r2 tr Ht2) Ktk). }
  apply (step_tail_rw _ _ (srw_cons _ _ _ _ _ Hg2 R2) tr Gr tk KToken tk Htk Ktk (le_n _) Ok).
Qed.

Lemma segs_go_fuel : forall f1 f2 s, (length s < f1)%nat -> (length s < f2)%nat -> segs_go f1 s = segs_go f2 s.
Proof.
  induction f1 as [|f1 IH]; intros f2 s L1 L2; [lia|]. destruct f2 as [|f2]; [lia|].
  cbn [segs_go]. destruct s as [|c s']; [reflexivity|].
  destruct (kstep (c :: s')) as [[k t]|] eqn:Ek; [|reflexivity].
  pose proof (kstep_shorter _ _ _ Ek) as L.
  rewrite (IH f2 (skipn (length t) (c :: s'))) by lia. reflexivity.
Qed.

Definition seg_step (k : kind) (t : list N) (o : option (list seg * list N)) : option (list seg * list N) :=
  match o with
  | None => None
  | Some r =>
    match k with
    | KToken | KErrToken => Some (([], t) :: fst r, snd r)
    | _ => Some (push_gap t r)
    end
  end.

Lemma segs_step : forall s k t, kstep s = Some (k, t) ->
  segs_of s = seg_step k t (segs_of (skipn (length t) s)).
Proof.
  intros s k t Ek. unfold segs_of at 1. cbn [segs_go].
  destruct s as [|c s']; [discriminate|]. rewrite Ek.
  pose proof (kstep_shorter _ _ _ Ek) as L.
  unfold segs_of. rewrite (segs_go_fuel (length (c :: s')) (S (length (skipn (length t) (c :: s'))))) by lia.
  reflexivity.
Qed.

Lemma push_gap_nil : forall r, push_gap [] r = r.
Proof. intros [[|[g tk] l] tr]; reflexivity. Qed.

Lemma push_gap_app : forall t g r, push_gap t (push_gap g r) = push_gap (t ++ g) r.
Proof. intros t g [[|[g0 tk] l] tr]; cbn [push_gap]; now rewrite app_assoc. Qed.

Lemma gaprun_segs : forall g X, gaprun g X -> segs_of (g ++ X) = option_map (push_gap g) (segs_of X).
Proof.
  intros g X H. induction H as [X|k t g X Hk Gk Hr IH].
  - cbn [app]. destruct (segs_of X) as [r|]; [|reflexivity]. cbn [option_map]. now rewrite push_gap_nil.
  - rewrite (segs_step _ _ _ Hk). rewrite <- app_assoc, skipn_app_len, IH.
    destruct (segs_of X) as [r|]; [|reflexivity]. cbn [option_map seg_step].
    destruct k; try discriminate Gk; now rewrite push_gap_app.
Qed.

Lemma good_segs : forall l tr, good l tr -> segs_of (render l tr) = Some (l, tr).
Proof.
  induction l as [|[g t] r IH]; intros tr G; cbn [good render] in *.
  - pose proof (gaprun_segs tr [] G) as E. rewrite app_nil_r in E. rewrite E.
    cbn. now rewrite app_nil_r.
  - destruct G as (Gg & Ht & Kt & Gr). rewrite (gaprun_segs g _ Gg), (segs_step _ _ _ Kt), skipn_app_len.
    rewrite (IH tr Gr). cbn [seg_step option_map fst snd push_gap]. now rewrite app_nil_r.
Qed.

Lemma good_push_gap : forall k t r, gapk k = true ->
  kstep (t ++ render (fst r) (snd r)) = Some (k, t) -> good (fst r) (snd r) ->
  good (fst (push_gap t r)) (snd (push_gap t r)).
Proof.
  intros k t [[|[g tk] l] tr] Gk Hk G; cbn [push_gap fst snd good render] in *.
  - apply (gr_step k); [now rewrite app_nil_r|exact Gk|exact G].
  - destruct G as (Gg & Ht & Kt & Gr). split; [|tauto].
    apply (gr_step k); [now rewrite <- app_assoc|exact Gk|exact Gg].
Qed.

Lemma segs_go_good : forall f s, no_unclosed_go f s = true ->
  exists r, segs_go f s = Some r /\ good (fst r) (snd r).
Proof.
  induction f as [|f IH]; intros s C; [discriminate|]. cbn [segs_go no_unclosed_go] in C |- *.
  destruct s as [|c s']; [exists ([], []); split; [reflexivity|constructor]|].
  destruct (kstep (c :: s')) as [[k t]|] eqn:Ek; [|discriminate].
  apply andb_prop in C as [Ck C]. destruct (IH _ C) as (r0 & E0 & G0). rewrite E0.
  destruct (kstep_prefix _ _ _ Ek) as (rest & Es & Ht).
  pose proof (segs_go_render _ _ _ E0) as R0.
  rewrite Es, skipn_app_len in R0. rewrite Es, <- R0 in Ek.
  destruct k; try discriminate Ck; (eexists; split; [reflexivity|]).
  - exact (good_push_gap KSkip t r0 eq_refl Ek G0).
  - exact (good_push_gap KComment t r0 eq_refl Ek G0).
  - cbn [fst snd good]. split; [constructor|]. split; [exact Ht|]. split; [exact Ek|exact G0].
  - exact (good_push_gap KErr t r0 eq_refl Ek G0).
Qed.

Lemma segs_of_good : forall s, no_unclosed s = true ->
  exists l tr, segs_of s = Some (l, tr) /\ good l tr /\ s = render l tr.
Proof.
  intros s C. destruct (segs_go_good _ s C) as ([l tr] & E & G). exists l, tr.
  split; [exact E|]. split; [exact G|]. symmetry. exact (segs_of_render _ _ _ E).
Qed.

Lemma desired8_values : forall p n d, desired8 p n = Some d -> d = [] \/ d = [32].
Proof.
  intros p n d H. unfold desired8 in H.
  repeat match type of H with
         | (if ?c then _ else _) = _ => destruct c
         end; try discriminate; injection H as <-; auto.
Qed.

Lemma desired8_empty_stop : forall p n, desired8 p n = Some [] -> stopt n = true.
Proof.
  intros p n H. unfold desired8 in H.
  destruct (teq n T_COMMA) eqn:E1; [apply list_eqb_eq in E1; subst; reflexivity|].
  destruct (teq p T_COMMA).
  - destruct (tmem n [T_RPAREN; T_RBRACKET; T_RBRACE]) eqn:E2; [|discriminate].
    unfold tmem in E2. cbn [existsb] in E2.
    repeat (apply orb_prop in E2 as [E2|E2]); try discriminate E2; apply list_eqb_eq in E2; subst; reflexivity.
  - destruct (_ || _); discriminate.
Qed.

Lemma gaprw_8 : forall p n g, gaprw n g (new_gap8 true p n g).
Proof.
  intros p n g. unfold new_gap8. destruct (rewritable8 true g) eqn:R; [|constructor].
  destruct (desired8 p n) as [d|] eqn:D; [|constructor].
  unfold rewritable8 in R. apply andb_prop in R as [_ W].
  apply rw_ws; [exact W| |].
  - destruct (desired8_values _ _ _ D) as [-> | ->]; reflexivity.
  - intros -> _. exact (desired8_empty_stop p n D).
Qed.

Lemma segsrw_8 : forall l, segsrw l (phase8_segs true l).
Proof.
  apply (gap_phase_rw _ (new_gap8 true) (fun _ t => t) (fun t => t) (phase8_go true)); try reflexivity.
  intros. apply gaprw_8.
Qed.

Lemma segsrw_7 : forall l, segsrw l (phase7_segs l).
Proof.
  apply (gap_phase_rw phase7_ctx (fun c => new_gap7 (fst c) (snd c)) (fun c t => (Some (snd c), t)) (fun t => (None, t))
                      (fun c => phase7_go (fst c) (snd c))); try reflexivity.
  intros c n g. unfold new_gap7. destruct (_ && _); [apply rw_ins|apply rw_same].
Qed.

Lemma on_segs_good : forall f l tr, (forall l0, segsrw l0 (f l0)) -> good l tr ->
  on_segs f (render l tr) = render (f l) tr /\ good (f l) tr.
Proof.
  intros f l tr Hf G. unfold on_segs. rewrite (good_segs _ _ G). split; [reflexivity|].
  exact (good_rw _ _ (Hf l) tr G).
Qed.

Lemma on_segs_idem : forall f, (forall l, segsrw l (f l)) -> (forall l, f (f l) = f l) ->
  forall s, no_unclosed s = true -> on_segs f (on_segs f s) = on_segs f s.
Proof.
  intros f Hf Hi s C. destruct (segs_of_good s C) as (l & tr & _ & G & ->).
  destruct (on_segs_good f l tr Hf G) as [-> G']. destruct (on_segs_good f (f l) tr Hf G') as [-> _].
  now rewrite Hi.
Qed.

Definition phase78 (s : list N) : list N := phase8 true (phase7 s).

Lemma phase78_render : forall l tr, good l tr ->
  phase78 (render l tr) = render (phase78_segs true l) tr /\ good (phase78_segs true l) tr.
Proof.
  intros l tr G. unfold phase78, phase7, phase8.
  destruct (on_segs_good phase7_segs l tr segsrw_7 G) as [-> G'].
  exact (on_segs_good (phase8_segs true) _ tr segsrw_8 G').
Qed.

Lemma phase78_idem_lemma : forall s, no_unclosed s = true -> phase78 (phase78 s) = phase78 s.
Proof.
  intros s C. destruct (segs_of_good s C) as (l & tr & _ & G & ->).
  destruct (phase78_render l tr G) as [-> G']. destruct (phase78_render _ tr G') as [-> _].
  now rewrite phase78_segs_idem_lemma.
Qed.

Lemma phase78_tokens_lemma : forall s l tr, segs_of s = Some (l, tr) -> no_unclosed s = true ->
  exists l', segs_of (phase78 s) = Some (l', tr) /\ map snd l' = map snd l.
Proof.
  intros s l tr E C. destruct (segs_of_good s C) as (l' & tr' & E' & G & ->).
  rewrite E in E'. injection E' as <- <-.
  destruct (phase78_render l tr G) as [-> G']. exists (phase78_segs true l). split; [now apply good_segs|].
  unfold phase78_segs. now rewrite (segsrw_tokens _ _ (segsrw_8 _)), (segsrw_tokens _ _ (segsrw_7 _)).
Qed.

(* a gap that holds a comment is kept verbatim, possibly behind added whitespace *)
Definition gap_keep (g g' : list N) : Prop :=
  (all_ws g = true /\ all_ws g' = true) \/ exists w, all_ws w = true /\ g' = w ++ g.

Lemma all_ws_app : forall a b, all_ws (a ++ b) = all_ws a && all_ws b.
Proof. intros a b. unfold all_ws. apply forallb_app. Qed.

Lemma gap_keep_refl : forall g, gap_keep g g.
Proof. intro g. right. now exists []. Qed.

Lemma gap_keep_trans : forall a b c, gap_keep a b -> gap_keep b c -> gap_keep a c.
Proof.
  intros a b c [[Ha Hb]|(w & Hw & ->)] [[Hb' Hc]|(w2 & Hw2 & ->)].
  - now left.
  - left. split; [exact Ha|]. rewrite all_ws_app. now rewrite Hw2, Hb.
  - left. rewrite all_ws_app in Hb'. apply andb_prop in Hb' as [_ Ha]. now split.
  - right. exists (w2 ++ w). rewrite all_ws_app, Hw, Hw2. split; [reflexivity|now rewrite app_assoc].
Qed.

Lemma gaprw_keep : forall tk g g', gaprw tk g g' -> gap_keep g g'.
Proof.
  intros tk g g' [g0|w w' Hw Hw' _|g0].
  - apply gap_keep_refl.
  - now left.
  - right. now exists [32].
Qed.

Lemma segsrw_keep : forall l l', segsrw l l' -> Forall2 gap_keep (map fst l) (map fst l').
Proof.
  intros l l' R. induction R as [|g g' tk r r' Hg R IH]; cbn [map fst]; constructor; [|exact IH].
  exact (gaprw_keep _ _ _ Hg).
Qed.

Lemma Forall2_trans_keep : forall a b c, Forall2 gap_keep a b -> Forall2 gap_keep b c -> Forall2 gap_keep a c.
Proof.
  intros a b c H. revert c. induction H as [|x y a b Hxy H IH]; intros c Hc; inversion Hc; subst; constructor.
  - eapply gap_keep_trans; eassumption.
  - now apply IH.
Qed.

Lemma phase78_gaps_lemma : forall l, Forall2 gap_keep (map fst l) (map fst (phase78_segs true l)).
Proof.
  intro l. unfold phase78_segs. eapply Forall2_trans_keep; [exact (segsrw_keep _ _ (segsrw_7 l))|].
  exact (segsrw_keep _ _ (segsrw_8 (phase7_segs l))).
Qed.

Lemma final_newline_noop : forall r c, (c =? LF) = false ->
  final_newline (rev (LF :: c :: r)) = rev (LF :: c :: r).
Proof.
  intros r c Hc. unfold final_newline. rewrite rev_involutive, strip_lfs_unfold, Hc, andb_false_r.
  now rewrite N.eqb_refl.
Qed.

(* "abc LF f(a, \"  ,b) LF : an unclosed string, then a backslash (unrecognised
   character) in the gap between `,` and the next quote *)
Definition w_unclosed : list N :=
  [34; 97; 98; 99; 10; 102; 40; 97; 44; 32; 92; 34; 32; 32; 44; 98; 41; 10].

(* with strict = false (every gap without '/' and LF is rewritten) the backslash is
   deleted, which closes the first string; the second run then finds a new gap to rewrite *)
Lemma phase8_orig_not_idempotent_lemma :
  phase8 false (phase8 false w_unclosed) <> phase8 false w_unclosed.
Proof. vm_compute. discriminate. Qed.

Lemma phase8_fixed_on_witness : phase8 true w_unclosed = w_unclosed.
Proof. vm_compute. reflexivity. Qed.

(* f(a ,b:Int) LF  ->  f(a, b: Int) LF *)
Definition w_sample : list N := [102; 40; 97; 32; 44; 98; 58; 73; 110; 116; 41; 10].
Lemma phase78_example :
  no_unclosed w_sample = true /\
  phase78 w_sample = [102; 40; 97; 44; 32; 98; 58; 32; 73; 110; 116; 41; 10].
Proof. vm_compute. split; reflexivity. Qed.

(* phase 6 on  "a LF LF LF fun f() LF" with line 3 a toplevel definition start, and on a
   text where the definition follows directly *)
Lemma phase6_example :
  phase6 [3] [97; 10; 10; 10; 102; 10] = [97; 10; 10; 102; 10] /\
  phase6 [1] [97; 10; 102; 10] = [97; 10; 10; 102; 10] /\
  phase6 [2] (phase6 [1] [97; 10; 102; 10]) = phase6 [1] [97; 10; 102; 10].
Proof. vm_compute. repeat split. Qed.
