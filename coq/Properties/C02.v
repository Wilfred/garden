(* C02 -- Evaluation ends in a value or a Garden error, never a crash.
   Statements, in two parts; the proofs are in the files named below, except for one closed
   example and short combinations at the machine level, proved in place.
   The built-in argument table: wrong-arity / wrong-typed calls to built-in functions
   and methods never index `arg_values` / `arg_positions` out of bounds (proofs in
   SandboxProps.v; `builtin_table` and `arity_fn` are GENERATED from src/eval.rs on every
   run, tools/gen_builtins.py).
   The machine level, at the end of the file: the evaluation loop keeps the value-stack /
   binding-block discipline and never crashes on the fragment Session.wf (proofs in
   Discipline.v), and on the refinement fragment wherever the reference semantics
   terminates (RefineProps.v).
   The arithmetic part is Properties/C04.v (`int_binop_no_panic`,
   `assign_update_no_panic`); deeply nested values are covered by search only
   (tools/props/C02.py). *)
From Coq Require Import NArith List String Bool.
From Garden Require Import Sandbox SandboxProps gen.Builtins.
From Garden Require Machine Session SessionProps Discipline Ref Refine RefineProps.
Import ListNotations.
Open Scope string_scope.

(* For every built-in arm of eval_built_in_call / eval_built_in_method_call: the arm
   calls `check_arity(.., N, arg_positions, arg_values)?;` as a top-level statement and
   every `arg_values[i]` / `arg_positions[i]` in the arm has a literal i < N and comes
   after that call (textual order = control-flow order for top-level statements). *)
Theorem builtin_index_guard : forall r, In r builtin_table -> index_guarded r = true.
Proof. exact builtin_index_guard_lemma. Qed.
Print Assumptions builtin_index_guard.

(* The same, unfolded. *)
Theorem builtin_index_guard_meaning :
  forall r u, In r builtin_table -> In u (r_uses r) ->
  exists a n i, r_arity r = Some a /\ a_expected a = Some n /\ a_toplevel a = true /\ a_propagated a = true /\
                u_index u = Some i /\ (i < n)%N /\ (a_off a < u_off u)%N.
Proof. exact builtin_index_guard_meaning_lemma. Qed.
Print Assumptions builtin_index_guard_meaning.

(* check_arity itself (model of its body; the translator checks the body still has that
   shape: `builtin_arity_fn_shape`) never indexes out of bounds when positions and values
   have the same length, which both call sites guarantee (one push to each per argument). *)
Theorem builtin_check_arity_no_panic :
  forall (P V : Type) expected (ps : list P) (vs : list V),
  List.length ps = List.length vs -> check_arity_model expected ps vs <> ArityPanic.
Proof. exact check_arity_no_panic. Qed.
Print Assumptions builtin_check_arity_no_panic.

Theorem builtin_arity_fn_shape : arity_fn_ok arity_fn = true.
Proof. exact arity_fn_shape_lemma. Qed.
Print Assumptions builtin_arity_fn_shape.

(* Table + check_arity: once the arity check of an arm has passed, every literal index
   used in that arm is in bounds in both vectors. *)
Theorem builtin_literal_index_in_bounds :
  forall r u, In r builtin_table -> In u (r_uses r) ->
  exists n i, u_index u = Some i /\
    forall (P V : Type) (ps : list P) (vs : list V),
      List.length ps = List.length vs -> check_arity_model (N.to_nat n) ps vs = ArityOk ->
      nth_error vs (N.to_nat i) <> None /\ nth_error ps (N.to_nat i) <> None.
Proof. exact builtin_literal_index_in_bounds_lemma. Qed.
Print Assumptions builtin_literal_index_in_bounds.

(* The arity each arm checks is the number of parameters of the Garden-side declaration
   (so the checker's view and the runtime's view of each built-in agree). *)
Theorem builtin_arity_matches_declaration :
  forall r, In r builtin_table -> arity_matches_declaration r = true.
Proof. exact arity_matches_declaration_lemma. Qed.
Print Assumptions builtin_arity_matches_declaration.

(* Non-vacuity: String::substring is in the table, checks arity 2 and indexes 0 and 1;
   the condition is falsifiable (the arm as it was before the fix: index 2 under arity 2). *)
Example builtin_index_guard_nonvacuous :
  (exists r, In r builtin_table /\ r_variant r = "StringSubstring" /\
             (exists a, r_arity r = Some a /\ a_expected a = Some 2%N) /\
             existsb (fun u => match u_index u with Some 1%N => true | _ => false end) (r_uses r) = true) /\
  index_guarded {| r_kind := KMethod; r_variant := "StringSubstring"; r_ns := "String"; r_name := "substring";
                   r_decl_params := Some 2%N;
                   r_arity := Some {| a_expected := Some 2%N; a_off := 14%N; a_toplevel := true;
                                      a_propagated := true; a_unique := true |};
                   r_uses := [ {| u_what := UPosition; u_index := Some 2%N; u_off := 1500%N |} ];
                   r_guard := None; r_effect := None; r_helper_effect := None; r_std_paths := [];
                   r_block_arm := true; r_shared_arm := false |} = false.
Proof. exact index_guard_nonvacuous_lemma. Qed.
Print Assumptions builtin_index_guard_nonvacuous.

(* Machine level: the evaluation loop itself never crashes (proved in
   Discipline.v on the evaluator model Machine.v, for well-formed programs of
   the fragment Session.wf: everything of the modelled core language EXCEPT
   for / break / continue / closure literals -- `match` and `return`, anywhere,
   also in operand position, are included; that integer arithmetic does not panic
   is Discipline.int_arm_no_panic there, Properties/C04.v int_binop_no_panic here) *)
Theorem machine_step_never_crashes_partial : forall p,
  Session.wf_prog p = true -> Session.globals_ok p = true -> Session.globals_noint p = true ->
  forall s, SessionProps.stack_run (Machine.stack s) -> Machine.step p s <> Machine.Crashed.
Proof. intros p W G N. apply Discipline.machine_no_crash_lemma. repeat split; assumption. Qed.
Print Assumptions machine_step_never_crashes_partial.

Theorem machine_run_never_crashes_partial : forall p exprs,
  Session.wf_prog p = true -> Session.globals_ok p = true -> Session.globals_noint p = true ->
  Session.wf_all_used exprs = true ->
  forall n, Machine.run p n (Machine.init_state exprs None None) <> Machine.RCrashed.
Proof. intros p exprs W G N WE. apply Discipline.run_no_crash_lemma; [repeat split; assumption|exact WE]. Qed.
Print Assumptions machine_run_never_crashes_partial.

(* the fragment: `match` and `return` are well formed (Session.wf), `for` and `break` are not *)
Example discipline_fragment_has_match_and_return :
  let mt u := {| Machine.used := u; Machine.pstart := 0%N; Machine.pend := 0%N |} in
  Session.wf_all_used
    [ Machine.EMatch (mt true) (Machine.EVar (mt true) 5%N)
        [ (6%N, (0, 0)%N, Some 7%N, [Machine.EInt (mt false) BinNums.Z0; Machine.EVar (mt true) 7%N]);
          (0%N, (0, 0)%N, None, [Machine.EReturn (mt true) (Some (Machine.EInt (mt true) BinNums.Z0))]) ];
      Machine.EBin (mt true) (Machine.BInt Arith.OAdd) (Machine.EInt (mt true) BinNums.Z0)
        (Machine.EReturn (mt true) None) ] = true /\
  Session.wf (Machine.EFor (mt true) 5%N (Machine.EVar (mt true) 6%N) []) = false /\
  Session.wf (Machine.EBreak (mt false)) = false.
Proof. repeat split; reflexivity. Qed.
Print Assumptions discipline_fragment_has_match_and_return.

(* For the constructs Session.wf excludes (for, break / continue, closure
   literals) crash-freedom is available on the runs the reference semantics
   covers: for every program of the refinement fragment (Refine.in_fragment,
   Properties/C05.v: break / continue in statement position only) on which
   Ref.v terminates with a value or a runtime error, the machine run never
   crashes and never leaves the model, WHATEVER the fuel.  (Missing for a full
   statement on that fragment: diverging runs, and states other than the
   initial one.) *)
Theorem machine_run_never_crashes_when_ref_terminates_partial : forall p fuel exprs r s',
  Refine.prog_good p = true ->
  forallb Refine.in_fragment exprs = true -> Refine.well_annotated_toplevel exprs = true ->
  Ref.ref_run p fuel exprs = (r, s') ->
  (exists v, r = Ref.Ok v) \/ (exists k, r = Ref.Ctl (Ref.CErr k)) ->
  forall n, Machine.run p n (Machine.init_state exprs None None) <> Machine.RCrashed /\
            Machine.run p n (Machine.init_state exprs None None) <> Machine.RUnsupported.
Proof. exact RefineProps.run_never_crashes_when_ref_terminates. Qed.
Print Assumptions machine_run_never_crashes_when_ref_terminates_partial.
