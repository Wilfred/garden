(* Proofs about the session model: one response per request, in order (C09);
   the session layer never panics by itself; the value-stack / binding-block
   discipline `stack_ok` survives every session command, given that the
   evaluator keeps it (C09; Discipline.v proves that it does); a toplevel let
   is seen by every later request (C11). *)
From Coq Require Import PeanoNat NArith Bool List Lia.
From Garden Require Import Machine MachineInv MachineSession Session.
Import ListNotations.
Open Scope nat_scope.

Lemma handle_total fx fuel p s r : exists s' a, handle fx fuel p s r = (s', a).
Proof. destruct (handle fx fuel p s r) as [s' a]. eauto. Qed.

Lemma run_history_cons fx fuel p s r rs :
  run_history fx fuel p s (r :: rs) =
  let '(s1, a) := handle fx fuel p s r in
  match a with
  | SessionPanic => (s1, [SessionPanic])
  | _ => let '(s2, l) := run_history fx fuel p s1 rs in (s2, a :: l)
  end.
Proof. reflexivity. Qed.

Lemma run_history_length fx fuel p : forall rs s, length (snd (run_history fx fuel p s rs)) <= length rs.
Proof.
  induction rs as [|r rs IH]; intros s; cbn [run_history]; [cbn; lia|].
  destruct (handle fx fuel p s r) as [s1 a].
  specialize (IH s1). destruct (run_history fx fuel p s1 rs) as [s2 l].
  destruct a; cbn in *; lia.
Qed.

Lemma run_history_head fx fuel p s r rs :
  exists s2 l2, run_history fx fuel p s (r :: rs) = (s2, snd (handle fx fuel p s r) :: l2).
Proof.
  cbn [run_history]. destruct (handle fx fuel p s r) as [s1 a].
  destruct (run_history fx fuel p s1 rs) as [s2 l]. destruct a; cbn [snd]; eauto.
Qed.

Lemma run_history_cons_ok fx fuel p s r rs s1 a :
  handle fx fuel p s r = (s1, a) -> a <> SessionPanic ->
  run_history fx fuel p s (r :: rs) = (fst (run_history fx fuel p s1 rs), a :: snd (run_history fx fuel p s1 rs)).
Proof.
  intros E NA. rewrite run_history_cons, E. destruct (run_history fx fuel p s1 rs). now destruct a.
Qed.

Lemma panic_dec (a : response) : {a = SessionPanic} + {a <> SessionPanic}.
Proof. destruct a; (now left) || (right; discriminate). Qed.

(* while nothing panicked, the i-th response is the answer to the i-th request
   in the state left by the requests before it *)
Lemma responses_in_order_lemma fx fuel p : forall rs1 s r rs2 s1 l1,
  run_history fx fuel p s rs1 = (s1, l1) -> ~ In SessionPanic l1 ->
  length l1 = length rs1 /\
  exists s2 l2, run_history fx fuel p s (rs1 ++ r :: rs2) = (s2, l1 ++ snd (handle fx fuel p s1 r) :: l2).
Proof.
  induction rs1 as [|r1 rs1 IH]; intros s r rs2 s1 l1 H NP.
  - injection H as <- <-. split; [reflexivity|]. apply run_history_head.
  - destruct (handle fx fuel p s r1) as [sa a] eqn:E. destruct (panic_dec a) as [->|NA].
    + rewrite run_history_cons, E in H. injection H as _ <-. exfalso. apply NP. left. reflexivity.
    + cbn [app]. rewrite (run_history_cons_ok _ _ _ _ _ _ _ _ E NA).
      rewrite (run_history_cons_ok _ _ _ _ _ _ _ _ E NA) in H.
      destruct (run_history fx fuel p sa rs1) as [sb lb] eqn:E2. injection H as <- <-.
      destruct (IH sa r rs2 sb lb E2) as (L & s2 & l2 & R); [intros I; apply NP; right; exact I|].
      rewrite R. split; [cbn [length]; now rewrite L|]. exists s2, l2. reflexivity.
Qed.

Lemma respond_panic s0 r s' : respond s0 r = (s', SessionPanic) -> r = RCrashed.
Proof. destruct r; cbn; intros H; inversion H; reflexivity. Qed.

(* The session layer by itself never panics (with the repaired :skip): the
   only way to a SessionPanic is an evaluator crash inside `eval`. *)
Lemma handle_session_layer_no_panic_lemma fuel p s r s' :
  stack s <> [] -> handle all_fixes fuel p s r = (s', SessionPanic) ->
  exists stop s1, stack s1 <> [] /\ eval true p fuel stop s1 = RCrashed.
Proof.
  intros NE H.
  assert (K : forall stop s1, stack s1 <> [] -> respond s (eval true p fuel stop s1) = (s', SessionPanic) ->
                exists stop s1, stack s1 <> [] /\ eval true p fuel stop s1 = RCrashed).
  { intros stop s1 N1 R. apply respond_panic in R. eauto. }
  destruct r; cbn [handle all_fixes fx_skip fx_call] in H; try discriminate.
  - destruct exprs as [|e0 exprs]; [discriminate|].
    unfold install in H. destruct (stack s) as [|f rest]; [contradiction|].
    eapply K; [|exact H]. discriminate.
  - eapply K; [|exact H]. exact NE.
  - destruct (stack s) as [|f rest]; [contradiction|].
    destruct (todo f) as [|[es e] t]; [discriminate|].
    eapply K; [|exact H]. discriminate.
  - destruct (stack s) as [|f rest]; [contradiction|].
    eapply K; [|exact H]. discriminate.
  - destruct (stack s) as [|f rest]; [contradiction|discriminate].
Qed.

Definition uu (e : expr) : nat := if eused e then 1 else 0.

(* how many values a pending entry (state, expression) pops from the value
   stack, and how many (0 or 1) it pushes *)
Definition eff (s : estate) (e : expr) : option (nat * nat) :=
  match e with
  | EInt _ _ | EStr _ _ | EVar _ _ | EParen _ _ => Some (0, uu e)
  | EBin _ _ _ _ => match s with SDone => Some (2, uu e) | _ => Some (0, uu e) end
  | ELet _ _ _ | EAssign _ _ _ _ | EUpd _ _ _ _ _ => match s with SDone => Some (1, uu e) | _ => Some (0, uu e) end
  | EIf m _ _ el =>
      match s with
      | SNot => Some (0, uu e)
      | SPart _ => Some (1, uu e)
      | SDone => Some (0, if used m && negb (is_some el) then 1 else 0)
      end
  | EWhile _ _ _ =>
      match s with
      | SNot => Some (0, uu e)
      | SPart BWill => Some (1, uu e)
      | SPart BDoneRun => Some (0, uu e)
      | SPart BNot => None
      | SDone => Some (0, 0)
      end
  | EList _ l | ETuple _ l => match s with SDone => Some (length l, uu e) | _ => Some (0, uu e) end
  | ECall _ _ args =>
      match s with
      | SNot => Some (0, uu e)
      | SPart _ => Some (1, uu e)
      | SDone => Some (S (length args), uu e)
      end
  | EReturn _ _ => match s with SDone => Some (1, uu e) | _ => Some (0, uu e) end
  | EMatch _ _ _ =>
      match s with
      | SNot => Some (0, uu e)
      | SPart _ => Some (1, uu e)
      | SDone => Some (0, 0)
      end
  | _ => None
  end.

Fixpoint sim (t : list (estate * expr)) (n : nat) : option nat :=
  match t with
  | [] => Some n
  | (s, e) :: t' =>
      match eff s e with
      | None => None
      | Some (c, pr) => if Nat.leb c n then sim t' (n - c + pr) else None
      end
  end.

Lemma uu_one e : eused e = true -> uu e = 1.
Proof. unfold uu. now intros ->. Qed.

Lemma sim_cons s e T K c pr : eff s e = Some (c, pr) -> c <= K -> sim ((s, e) :: T) K = sim T (K - c + pr).
Proof. intros E L. cbn [sim]. rewrite E. apply Nat.leb_le in L. now rewrite L. Qed.

Lemma sim_cons_inv s e T K n : sim ((s, e) :: T) K = Some n ->
  exists c pr, eff s e = Some (c, pr) /\ c <= K /\ sim T (K - c + pr) = Some n.
Proof.
  cbn [sim]. destruct (eff s e) as [[c pr]|]; [|discriminate].
  destruct (Nat.leb c K) eqn:L; [|discriminate]. apply Nat.leb_le in L. eauto.
Qed.

Lemma sim_shift d t : forall k n, sim t k = Some n -> sim t (k + d) = Some (n + d).
Proof.
  induction t as [|[s e] t IH]; intros k n H.
  - inversion H. reflexivity.
  - destruct (sim_cons_inv _ _ _ _ _ H) as (c & pr & E & L & H').
    rewrite (sim_cons _ _ _ _ _ _ E) by lia.
    replace (k + d - c + pr) with (k - c + pr + d) by lia. now apply IH.
Qed.

Lemma eff_prod_le s e : match eff s e with Some (_, pr) => pr <= uu e | None => True end.
Proof.
  destruct e; try exact I; destruct s as [|[]|]; cbn [eff]; auto using Nat.le_0_l.
  unfold uu, eused. cbn [emeta]. destruct (used m); cbn [andb]; [destruct (negb _)|]; auto.
Qed.

Lemma eff_fresh e : wf e = true -> eff SNot e = Some (0, uu e).
Proof. destruct e; cbn; intros H; try discriminate; reflexivity. Qed.

Definition cfv (v : value) : Prop := closure_free v = true.
Definition cfb (b : block) : Prop := Forall (fun xv => cfv (snd xv)) b.

(* the invariant of one frame; `exempt`: an idle toplevel frame may have an
   empty value stack; `inc`: 1 when the frame above will push its result here *)
Definition frame_ok (exempt : bool) (inc : nat) (f : frame) : Prop :=
  Forall (fun x => wf (snd x) = true) (todo f) /\
  (exists n, sim (todo f) (length (vals f) + inc) = Some n /\ ((exempt = true /\ todo f = []) \/ 1 <= n)) /\
  1 + MachineInv.pending (todo f) <= length (blocks f) /\
  Forall cfv (vals f) /\ Forall cfb (blocks f) /\ cfb (nextb f).

Definition binc (b : bool) : nat := if b then 1 else 0.

Fixpoint callers_ok (u : bool) (rest : list frame) : Prop :=
  match rest with
  | [] => True
  | g :: rest' => frame_ok false (binc u) g /\ callers_ok (uses g) rest'
  end.

(* between requests *)
Definition stack_ok (st : list frame) : Prop :=
  match st with
  | [] => False
  | [f] => frame_ok true 0 f
  | f :: rest => frame_ok false 0 f /\ callers_ok (uses f) rest
  end.

(* inside the loop of `eval` *)
Definition stack_run (st : list frame) : Prop :=
  match st with
  | [] => False
  | f :: rest => frame_ok false 0 f /\ callers_ok (uses f) rest
  end.

Definition WT (T : list (estate * expr)) : Prop := Forall (fun x : estate * expr => wf (snd x) = true) T.

Definition AU (l : list expr) : Prop := Forall (fun x => eused x = true /\ wf x = true) l.

Lemma wf_all_used_AU l : wf_all_used l = true -> AU l.
Proof.
  induction l as [|x l IH]; cbn [wf_all_used]; intros H; [constructor|].
  apply andb_prop in H. destruct H as [H H2]. apply andb_prop in H. destruct H as [U W].
  constructor; [auto|now apply IH].
Qed.

(* The entries T can run with k values on the value stack and nb binding blocks
   in the frame: every value they pop is there, at least one is left at the end
   (the result of the frame), and the blocks they own lie above one more. *)
Definition rest_ok (T : list (estate * expr)) (k nb : nat) : Prop :=
  WT T /\ (exists n, sim T k = Some n /\ 1 <= n) /\ 1 + MachineInv.pending T <= nb.

Lemma frame_ok_rest ex inc f :
  frame_ok ex inc f <->
  ((ex = true /\ todo f = [] /\ 1 <= length (blocks f)) \/
   rest_ok (todo f) (length (vals f) + inc) (length (blocks f))) /\
  Forall cfv (vals f) /\ Forall cfb (blocks f) /\ cfb (nextb f).
Proof.
  split.
  - intros (W & (n & S & C) & B & CF). split; [|exact CF].
    destruct C as [[E T0]|N1]; [left|right; repeat split; eauto].
    rewrite T0 in B. cbn in B. repeat split; auto; lia.
  - intros ([(E & T0 & B)|(W & (n & S & N1) & B)] & CF).
    + unfold frame_ok. rewrite T0. split; [constructor|]. split; [cbn [sim]; eauto|]. split; [cbn; lia|exact CF].
    + split; [exact W|]. split; [eauto|]. split; [exact B|exact CF].
Qed.

Lemma frame_run_rest inc f :
  frame_ok false inc f <->
  rest_ok (todo f) (length (vals f) + inc) (length (blocks f)) /\
  Forall cfv (vals f) /\ Forall cfb (blocks f) /\ cfb (nextb f).
Proof.
  rewrite frame_ok_rest. split; [intros ([(E & _)|R] & CF); [discriminate|auto]|intros (R & CF); auto].
Qed.

Lemma frame_ok_weaken ex inc f : frame_ok false inc f -> frame_ok ex inc f.
Proof. rewrite frame_run_rest, frame_ok_rest. intros (R & CF). auto. Qed.

Lemma frame_ok_busy ex inc f : frame_ok ex inc f -> todo f <> [] -> frame_ok false inc f.
Proof.
  rewrite frame_run_rest, frame_ok_rest. intros ([(_ & T0 & _)|R] & CF) NE; [contradiction|auto].
Qed.

Lemma ok_frame T VS BS NBk U :
  rest_ok T (length VS) (length BS) -> Forall cfv VS -> Forall cfb BS -> cfb NBk ->
  frame_ok false 0 (mkFrame T VS BS NBk U).
Proof. intros R V BB NB. apply frame_run_rest. cbn [todo vals blocks nextb]. rewrite Nat.add_0_r. auto. Qed.

Lemma rest_ok_nil k nb : 1 <= k -> 1 <= nb -> rest_ok [] k nb.
Proof. intros K N. split; [constructor|]. split; [exists k; auto|cbn; lia]. Qed.

Lemma rest_ok_mono T k k' nb nb' : k <= k' -> nb <= nb' -> rest_ok T k nb -> rest_ok T k' nb'.
Proof.
  intros Lk Ln (W & (n & S & N1) & B). split; [exact W|]. split; [|lia].
  apply (sim_shift (k' - k)) in S. replace (k + (k' - k)) with k' in S by lia.
  exists (n + (k' - k)). split; [exact S|lia].
Qed.

Lemma rest_ok_cons s e t c pr k nb :
  wf e = true -> eff s e = Some (c, pr) -> rest_ok t (k + pr) nb ->
  rest_ok ((s, e) :: t) (c + k) (binc (entry_pops s e) + nb).
Proof.
  intros We EF (W & (n & S & N1) & B). split; [constructor; assumption|]. split.
  - exists n. rewrite (sim_cons _ _ _ _ _ _ EF) by lia. replace (c + k - c) with k by lia. auto.
  - cbn [MachineInv.pending]. unfold pops, binc. cbn [fst snd]. destruct (entry_pops s e); lia.
Qed.

Lemma rest_ok_uncons s e t k nb :
  rest_ok ((s, e) :: t) k nb ->
  wf e = true /\ exists c pr, eff s e = Some (c, pr) /\ c <= k /\
    rest_ok t (k - c + pr) (nb - binc (entry_pops s e)).
Proof.
  intros (W & (n & S & N1) & B). inversion W as [|? ? We Wt]; subst. split; [exact We|].
  destruct (sim_cons_inv _ _ _ _ _ S) as (c & pr & EF & L & S').
  exists c, pr. repeat split; eauto.
  cbn [MachineInv.pending] in B. unfold pops, binc in *. cbn [fst snd] in B. destruct (entry_pops s e); lia.
Qed.

Lemma rest_ok_new x T k nb : wf x = true -> rest_ok T (k + uu x) nb -> rest_ok ((SNot, x) :: T) k nb.
Proof. intros W. exact (rest_ok_cons SNot x T 0 (uu x) k nb W (eff_fresh x W)). Qed.

Lemma rest_ok_fresh l : forall T k nb, AU l ->
  rest_ok T (k + length l) nb -> rest_ok (map (fun e => (SNot, e)) l ++ T) k nb.
Proof.
  induction l as [|x l IH]; intros T k nb A R; cbn [map app length] in *.
  - now rewrite Nat.add_0_r in R.
  - inversion A as [|? ? [U W] A']; subst. apply rest_ok_new; [exact W|]. rewrite (uu_one x U).
    apply IH; [exact A'|]. now rewrite <- Nat.add_assoc.
Qed.

Lemma pop_n_ok : forall n vs, n <= length vs ->
  exists l r, pop_n n vs = Some (l, r) /\ length l = n /\ vs = l ++ r.
Proof.
  induction n as [|n IH]; intros vs L; cbn [pop_n].
  - exists [], vs. auto.
  - destruct vs as [|v vs]; [cbn in L; lia|]. cbn in L.
    destruct (IH vs ltac:(lia)) as (l & r & -> & LL & ->). exists (v :: l), r. cbn. auto.
Qed.

(* What the first pending entry finds when it runs.  Its operands are given as
   `pop_n` will take them and its effect as a `match` on `eff`, so that both
   reduce in each case of `exec`. *)
Lemma frame_ok_entry s e t VS BS NBk U :
  frame_ok false 0 (mkFrame ((s, e) :: t) VS BS NBk U) ->
  wf e = true /\ Forall cfb BS /\ cfb NBk /\
  match eff s e with
  | Some (c, pr) =>
      match pop_n c VS with
      | Some (l, vs) =>
          Forall cfv l /\ Forall cfv vs /\
          rest_ok t (length vs + pr) (length (if entry_pops s e then tl BS else BS))
      | None => False
      end
  | None => False
  end.
Proof.
  intros F. apply frame_run_rest in F. cbn [todo vals blocks nextb] in F. destruct F as (R & V & BB & NB).
  apply rest_ok_uncons in R. destruct R as (We & c & pr & -> & L & R). rewrite Nat.add_0_r in L, R.
  destruct (pop_n_ok c VS L) as (l & vs & -> & LL & ->). apply Forall_app in V. destruct V as [Vl Vs].
  do 5 (split; [assumption|]). eapply rest_ok_mono; [| |exact R].
  - rewrite app_length. lia.
  - unfold binc. destruct (entry_pops s e), BS; cbn [tl length]; lia.
Qed.
Arguments frame_ok_entry {s e t VS BS NBk U}.

Lemma ok_push b v T VS BS NBk U :
  cfv v -> rest_ok T (length VS + binc b) (length BS) -> Forall cfv VS -> Forall cfb BS -> cfb NBk ->
  frame_ok false 0 (push_val_if b (mkFrame T VS BS NBk U) v) /\ uses (push_val_if b (mkFrame T VS BS NBk U) v) = U.
Proof.
  intros CV R V BB NB. destruct b; cbn [push_val_if push_val todo vals blocks nextb uses binc] in *.
  - split; [|reflexivity]. apply ok_frame; auto. cbn [length]. now rewrite <- Nat.add_1_r.
  - split; [|reflexivity]. apply ok_frame; auto. now rewrite Nat.add_0_r in R.
Qed.

Lemma stack_run_ok st : stack_run st -> stack_ok st.
Proof.
  destruct st as [|f [|g rest]]; cbn; auto. intros [H _]. now apply frame_ok_weaken.
Qed.

Lemma stack_ok_run s : stack_ok (stack s) -> idle s = false -> stack_run (stack s).
Proof.
  unfold idle. destruct (stack s) as [|f [|g rest]]; cbn; auto.
  intros F B. split; [|exact I]. apply (frame_ok_busy true); [exact F|].
  intros E. rewrite E in B. discriminate.
Qed.

(* What the evaluator has to guarantee (the machine-level part of "evaluation
   never crashes", property C02): from a state that satisfies the discipline, one
   iteration of the eval loop does not crash and keeps the discipline. *)
Definition evaluator_keeps_discipline (p : prog) : Prop :=
  forall s, stack_run (stack s) ->
    match step p s with
    | Next s' => stack_run (stack s')
    | Done v s' => stack_ok (stack s')
    | Failed _ _ => True
    | Crashed => False
    | Unsupported => True
    end.

Definition result_ok (r : run_result) : Prop :=
  match r with
  | RDone _ s' | RFailed _ s' | ROutOfFuel s' => stack_ok (stack s')
  | RCrashed => False
  | RUnsupported => True
  end.

Lemma frame_done f : frame_ok false 0 f -> todo f = [] ->
  exists v vs, vals f = v :: vs /\ cfv v /\ frame_ok true 0 (set_vals f vs).
Proof.
  intros F T0. apply frame_run_rest in F. destruct F as ((_ & (n & S & N1) & B) & V & CF).
  rewrite T0 in S, B. inversion S; subst n.
  destruct (vals f) as [|v vs]; [cbn in N1; lia|]. inversion V; subst.
  exists v, vs. split; [reflexivity|]. split; [assumption|]. apply frame_ok_rest. cbn [set_vals todo vals blocks nextb].
  split; [left; cbn in B; repeat split; auto; lia|auto].
Qed.

Lemma frame_return f caller rest : stack_run (f :: caller :: rest) -> todo f = [] ->
  exists v vs, vals f = v :: vs /\ stack_run (push_val_if (uses f) caller v :: rest).
Proof.
  intros (F & Fc & C) T0. destruct (frame_done f F T0) as (v & vs & E & Vv & _). exists v, vs. split; [exact E|].
  destruct caller as [T VS BS NBk U]. apply frame_run_rest in Fc. destruct Fc as (R & V & BB & NB).
  cbn [stack_run]. rewrite push_val_if_uses. split; [|exact C]. now apply ok_push.
Qed.

Lemma eval_loop_ok p (EK : evaluator_keeps_discipline p) : forall fuel stop calld s,
  stack_run (stack s) -> result_ok (eval_loop true p fuel stop calld s).
Proof.
  induction fuel as [|fuel IH]; intros stop calld s R; cbn [eval_loop].
  - cbn. now apply stack_run_ok.
  - pose proof (EK s R) as ST.
    destruct (stack s) as [|f rest] eqn:ES; [exact R|].
    assert (GEN : result_ok match step p s with
                            | Next s' => eval_loop true p fuel stop calld s'
                            | Done v s' => RDone v s'
                            | Failed e s' => RFailed e s'
                            | Crashed => RCrashed
                            | Unsupported => RUnsupported
                            end).
    { destruct (step p s) as [s'|v s'|e s'| |] eqn:E; cbn; auto.
      - apply step_failed_restores in E. destruct E as (-> & _). rewrite ES. now apply stack_run_ok. }
    destruct (todo f) as [|[es e] t] eqn:ET.
    + destruct rest as [|caller rest']; [exact GEN|].
      destruct calld as [d|]; [|exact GEN].
      destruct (Nat.eqb d (length (f :: caller :: rest'))); [|exact GEN].
      destruct (frame_return f caller rest' R ET) as (v & vs & -> & R').
      now apply stack_run_ok.
    + destruct (step p s) as [s'|v s'|e0 s'| |] eqn:E; try exact GEN.
      destruct (_ && _ && _).
      * destruct (stack s') as [|f' r'] eqn:ES'; [exact ST|].
        destruct (vals f'); cbn [result_ok]; rewrite ES'; now apply stack_run_ok.
      * destruct (_ && _); apply IH; exact ST.
Qed.

Lemma eval_ok p (EK : evaluator_keeps_discipline p) fuel stop s :
  stack_ok (stack s) -> result_ok (eval true p fuel stop s).
Proof.
  intros O. unfold eval. destruct (idle s) eqn:I; [exact O|].
  apply eval_loop_ok; [exact EK|]. now apply stack_ok_run.
Qed.

Lemma respond_ok s0 r : stack_ok (stack s0) -> result_ok r ->
  stack_ok (stack (fst (respond s0 r))) /\ snd (respond s0 r) <> SessionPanic.
Proof. destruct r; cbn; intros O R; try contradiction; split; auto; discriminate. Qed.

(* The session commands keep the discipline: each of them replaces the current
   frame f by a frame f' with the same `uses`; the frames below are untouched. *)
Lemma stack_ok_update f f' rest :
  uses f' = uses f -> (forall ex, frame_ok ex 0 f -> frame_ok ex 0 f') -> stack_ok (f :: rest) -> stack_ok (f' :: rest).
Proof.
  intros U K. destruct rest as [|g rest]; cbn [stack_ok]; [apply K|].
  intros [F C]. rewrite U. auto.
Qed.

Lemma frame_ok_base ex inc f :
  frame_ok ex inc f -> 1 <= length (blocks f) /\ Forall cfv (vals f) /\ Forall cfb (blocks f) /\ cfb (nextb f).
Proof. intros (_ & _ & B & CF). split; [lia|exact CF]. Qed.

Lemma install_ok ex f exprs :
  frame_ok ex 0 f -> wf_all_used exprs = true -> exprs <> [] ->
  frame_ok false 0 (set_todo f (map (fun e => (SNot, e)) exprs)).
Proof.
  intros F W NE. apply frame_ok_base in F. destruct F as (B & V & BB & NB).
  apply ok_frame; auto. rewrite <- (app_nil_r (map _ exprs)).
  apply rest_ok_fresh; [now apply wf_all_used_AU|]. apply rest_ok_nil; [|exact B].
  destruct exprs; [contradiction|cbn; lia].
Qed.

Lemma skip_ok ex f es e t :
  frame_ok ex 0 f -> todo f = (es, e) :: t ->
  frame_ok false 0 (if eused e then push_val (set_todo f t) vunit else set_todo f t).
Proof.
  intros F ET. apply frame_ok_busy in F; [|rewrite ET; discriminate].
  apply frame_run_rest in F. rewrite ET in F. destruct F as (R & V & BB & NB).
  apply rest_ok_uncons in R. destruct R as (_ & c & pr & EF & _ & R).
  pose proof (eff_prod_le es e) as PL. rewrite EF in PL.
  apply (ok_push (eused e) vunit); auto; [reflexivity|].
  eapply rest_ok_mono; [| |exact R]; [change (binc (eused e)) with (uu e)|]; lia.
Qed.

Lemma Forall_tl {A} (P : A -> Prop) l : Forall P l -> Forall P (tl l).
Proof. destruct l; cbn; intros H; [constructor|now inversion H]. Qed.

Lemma replace_ok ex f e :
  frame_ok ex 0 f -> eused e = true -> wf e = true ->
  frame_ok false 0 (push_todo (set_vals f (tl (vals f))) SNot e).
Proof.
  intros F U W. apply frame_ok_rest in F. destruct F as (D & V & BB & NB).
  unfold push_todo, set_vals. cbn [todo vals blocks nextb uses].
  apply ok_frame; auto using Forall_tl. apply rest_ok_new; [exact W|]. rewrite (uu_one e U).
  destruct D as [(_ & -> & B)|R]; [apply rest_ok_nil; lia|].
  eapply rest_ok_mono; [| |exact R]; [destruct (vals f); cbn; lia|lia].
Qed.

Lemma truncate_last_sub {A} (P : A -> Prop) l : Forall P l -> Forall P (truncate_last l).
Proof.
  intros H. unfold truncate_last. destruct (rev l) as [|x r] eqn:E; [constructor|].
  constructor; [|constructor]. rewrite Forall_forall in H. apply H. apply in_rev. rewrite E. left. reflexivity.
Qed.

Lemma truncate_last_len {A} (l : list A) : l <> [] -> length (truncate_last l) = 1.
Proof.
  intros NE. unfold truncate_last. destruct (rev l) eqn:E; [|reflexivity].
  apply (f_equal (@rev A)) in E. rewrite rev_involutive in E. contradiction.
Qed.

Lemma callers_last u rest f : callers_ok u rest -> last_frame rest = Some f -> exists ex inc, frame_ok ex inc f.
Proof.
  revert u. induction rest as [|g rest IH]; intros u C L; [discriminate|].
  destruct C as [F C]. cbn [last_frame] in L. destruct rest as [|g2 rest2].
  - inversion L; subst. eauto.
  - eapply IH; eassumption.
Qed.

Lemma stack_ok_last st f : stack_ok st -> last_frame st = Some f -> exists ex inc, frame_ok ex inc f.
Proof.
  destruct st as [|f0 [|g rest]]; cbn [stack_ok last_frame]; intros O L; [contradiction| |].
  - inversion L; subst. eauto.
  - destruct O as [_ C]. eapply callers_last; eassumption.
Qed.

Lemma abort_ok s : stack_ok (stack s) -> stack_ok (stack (abort s)).
Proof.
  intros O. unfold abort. destruct (last_frame (stack s)) as [f|] eqn:L; [|exact O].
  destruct (stack_ok_last _ _ O L) as (ex & inc & F). apply frame_ok_base in F. destruct F as (B & V & BB & _).
  cbn [stack stack_ok]. apply frame_ok_rest. cbn [abort_frame todo vals blocks nextb].
  rewrite truncate_last_len by (destruct (blocks f); [inversion B|discriminate]).
  split; [left; auto|]. split; [now apply truncate_last_sub|]. split; [now apply truncate_last_sub|constructor].
Qed.

Lemma remove_var_cf x b : cfb b -> cfb (remove_var x b).
Proof.
  unfold cfb. induction b as [|[y v] b IH]; cbn [remove_var]; intros H; [constructor|].
  inversion H; subst. destruct (N.eqb x y); [now apply IH|constructor; [assumption|now apply IH]].
Qed.

Lemma forget_ok ex f x : frame_ok ex 0 f -> frame_ok ex 0 (set_blocks f (map (remove_var x) (blocks f))).
Proof.
  rewrite !frame_ok_rest. cbn [set_blocks todo vals blocks nextb]. rewrite map_length.
  intros (D & V & BB & NB). repeat split; auto.
  apply Forall_map. eapply Forall_impl; [|exact BB]. intros b. apply remove_var_cf.
Qed.

Theorem handle_keeps_discipline p (EK : evaluator_keeps_discipline p) fuel s r :
  stack_ok (stack s) -> wf_request r = true ->
  stack_ok (stack (fst (handle all_fixes fuel p s r))) /\ snd (handle all_fixes fuel p s r) <> SessionPanic.
Proof.
  intros O WR.
  assert (EV : forall stop f' f rest, stack s = f :: rest -> uses f' = uses f ->
            (forall ex, frame_ok ex 0 f -> frame_ok false 0 f') ->
            let r := respond s (eval true p fuel stop (set_stack s (f' :: rest))) in
            stack_ok (stack (fst r)) /\ snd r <> SessionPanic).
  { intros stop f' f rest ES U K. apply respond_ok; [exact O|]. apply eval_ok; [exact EK|].
    rewrite ES in O. apply (stack_ok_update f); [exact U| |exact O]. intros ex F. apply frame_ok_weaken. eauto. }
  destruct r; cbn [handle all_fixes fx_skip fx_call wf_request andb] in *.
  - destruct exprs as [|e0 exprs]; [cbn; split; [exact O|discriminate]|].
    unfold install. destruct (stack s) as [|f rest] eqn:ES; [contradiction|].
    apply (EV _ _ f); [reflexivity..|]. intros ex F. apply (install_ok ex); [exact F|exact WR|discriminate].
  - apply respond_ok; [exact O|]. now apply eval_ok.
  - cbn. split; [now apply abort_ok|discriminate].
  - destruct (stack s) as [|f rest] eqn:ES; [contradiction|].
    destruct (todo f) as [|[es e] t] eqn:ET; [cbn; rewrite ES; split; [exact O|discriminate]|].
    apply (EV _ _ f); [reflexivity|now destruct (eused e)|]. intros ex F. now apply (skip_ok ex f es).
  - destruct (stack s) as [|f rest] eqn:ES; [contradiction|].
    apply andb_prop in WR. destruct WR as [U W].
    apply (EV _ _ f); [reflexivity..|]. intros ex F. now apply (replace_ok ex).
  - destruct (stack s) as [|f rest] eqn:ES; [contradiction|].
    cbn [fst snd set_stack stack]. split; [|discriminate]. apply (stack_ok_update f); [reflexivity| |exact O]. intros ex. apply forget_ok.
  - cbn. split; [exact O|discriminate].
Qed.

Inductive reachable (fuel : nat) (p : prog) : state -> Prop :=
| reach_fresh : reachable fuel p fresh
| reach_handle s r : reachable fuel p s -> wf_request r = true ->
    reachable fuel p (fst (handle all_fixes fuel p s r)).

Lemma fresh_ok : stack_ok (stack fresh).
Proof.
  apply (frame_ok_weaken true), ok_frame; [apply rest_ok_nil; auto|repeat constructor..].
Qed.

Theorem handle_no_panic_partial_lemma fuel p (EK : evaluator_keeps_discipline p) s :
  reachable fuel p s -> forall r, wf_request r = true -> snd (handle all_fixes fuel p s r) <> SessionPanic.
Proof.
  intros R. assert (O : stack_ok (stack s)).
  { induction R as [|s r R IH W]; [exact fresh_ok|]. now apply handle_keeps_discipline. }
  intros r W. now apply handle_keeps_discipline.
Qed.

Lemma install_keeps_scope s exprs s2 :
  install s exprs = Some s2 ->
  exists f rest, stack s = f :: rest /\
    stack s2 = set_todo f (map (fun e => (SNot, e)) exprs) :: rest /\
    out s2 = out s /\ ticks s2 = ticks s.
Proof.
  unfold install. destruct (stack s) as [|f rest]; [discriminate|].
  intros H. inversion H; subst. exists f, rest. cbn. auto.
Qed.

(* A toplevel `let x = e` whose right-hand side has been evaluated binds x in
   the toplevel block, and every later request (which only replaces the pending
   expressions) sees it. *)
Theorem toplevel_lets_persist_lemma p s f t m x rhs v vs b bs :
  stack s = [f] -> todo f = (SDone, ELet m x rhs) :: t -> vals f = v :: vs -> blocks f = b :: bs ->
  N.eqb x underscore = false ->
  interrupted s = false -> tick_limit s = None -> stack_limit s = None ->
  exists s' f', step p s = Next s' /\ stack s' = [f'] /\ blocks f' = ((x, v) :: b) :: bs /\
    forall exprs s2, install s' exprs = Some s2 ->
      exists f2, stack s2 = [f2] /\ blocks f2 = ((x, v) :: b) :: bs /\ get_var p f2 x = Some v.
Proof.
  intros ES ET EV EB NX I TL SL. unfold step. rewrite ES, ET, I, TL, SL. cbn [opt_le opt_lt exec].
  unfold pop_val. cbn [set_todo vals]. rewrite EV.
  change (blocks (set_vals (set_todo f t) vs)) with (blocks f). rewrite EB.
  unfold add_new. rewrite NX.
  eexists. eexists. split; [reflexivity|]. cbn [with_stack stack]. split; [reflexivity|].
  rewrite push_val_if_blocks. split; [reflexivity|].
  intros exprs s2 H. apply install_keeps_scope in H. destruct H as (f1 & rest & E1 & -> & _).
  inversion E1; subst. eexists. split; [reflexivity|].
  unfold get_var. cbn [set_todo blocks]. rewrite push_val_if_blocks. cbn [set_blocks blocks lookup_blocks assoc].
  rewrite N.eqb_refl. auto.
Qed.
