(* C23 -- Reported source positions are consistent: THE LEXER PART
   (token, comment and lex-error positions; Position::merge).
   Only statements here; proofs and the specification (`line_col`,
   `pos_consistent`, `all_positions`) are in LexProps.v, the model is Lex.v.

   LexProps.line_col src o l c: o is the byte length of a prefix p of src,
   l = number of `\n` in p, c = number of bytes of p after its last `\n`
   -- computed from the source text, independently of `from_offset`.
   LexProps.pos_consistent src p: start <= end <= byte length of src, both
   offsets are char boundaries, (line, column) = line_col of start,
   (end_line, end_column) = line_col of end.

   The AST-level part of C23 (positions built by the parser out of these with
   Position::merge) belongs to the parser model, not to this file. *)
From Coq Require Import NArith Bool List.
From Garden Require Import Base.Utf Lex LexProps.
Import ListNotations.
Open Scope N_scope.

(* For ALL sources: every position the lexer produces -- tokens, comments
   attached to tokens, trailing comments, lex errors -- is consistent. *)
Theorem lex_positions_wf : forall src ts tr es, lex src = LexOk ts tr es ->
  forall p, In p (all_positions ts tr es) -> pos_consistent src p.
Proof. exact lex_positions_wf_lemma. Qed.
Print Assumptions lex_positions_wf.

(* Position::merge(a, b) of two positions consistent with the same source is
   consistent with that source.  No ordering hypothesis is needed: the end
   offset is the larger of the two, and line numbers are monotone in offsets,
   so max(end lines) is the end line of the larger end offset. *)
Theorem merge_wf : forall src a b,
  pos_consistent src a -> pos_consistent src b -> pos_consistent src (merge a b).
Proof. exact merge_consistent_lemma. Qed.
Print Assumptions merge_wf.

(* `from_offset` (line_numbers) agrees with the independent specification on
   every char boundary of the source. *)
Theorem from_offset_correct : forall src o, boundary src o ->
  exists l c, from_offset src o = Some (l, c) /\ line_col src o l c.
Proof. exact from_offset_spec. Qed.
Print Assumptions from_offset_correct.

(* Non-vacuity: `let x = 1 é<U+00A0>"a<LF>€"`; the string token starts on
   line 0 column 14 and ends on line 1 column 4 (`€` is 3 bytes). *)
Example lex_positions_example :
  exists ts es, lex sample_src = LexOk ts [] es /\
    tok_texts ts = [[108; 101; 116]; [120]; [61]; [49]; [34; 97; 10; 8364; 34]] /\
    map (fun t => pos_fields (tpos t)) ts =
      [[0; 3; 0; 0; 0; 3]; [4; 5; 0; 0; 4; 5]; [6; 7; 0; 0; 6; 7]; [8; 9; 0; 0; 8; 9]; [14; 21; 0; 1; 14; 4]] /\
    map (fun e => pos_fields (epos e)) es = [[10; 12; 0; 0; 10; 12]].
Proof. exact sample_lex. Qed.
Print Assumptions lex_positions_example.

Example merge_example : merge (mkpos 0 3 0 0 0 3) (mkpos 14 21 0 1 14 4) = mkpos 0 21 0 1 0 4.
Proof. exact LexProps.merge_example. Qed.
Print Assumptions merge_example.

(* With fix_c off (cfg_orig) the token of `"a<LF>b"` gets end line 0 / end
   column 5, which is not the line/column of offset 5. *)
Theorem unfixed_multiline_string_position :
  exists t, lex_with cfg_orig multi_line_string = LexOk [t] [] [] /\ ~ pos_wf multi_line_string (tpos t).
Proof. exact orig_multiline_refuted. Qed.
Print Assumptions unfixed_multiline_string_position.
