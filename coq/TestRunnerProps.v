(* Proofs about the model of the test loop (TestRunner.v). *)
From Coq Require Import List Bool NArith Arith Lia.
Import ListNotations.
From Garden Require Import TestRunner.

Definition shape_isolates (sh : LoopShape) : Prop :=
  ls_reset_ticks sh = true /\ ls_restore_wd sh = true /\ ls_pop_to_toplevel sh = true.

Definition body_ok (t : Test) : Prop := reads_only_view (t_body t) /\ never_interrupted (t_body t).

(* The top-level state `garden test` / `sandboxed-test` start the loop in: one frame, nothing pending. *)
Definition at_toplevel (e : Env) : Prop := exists f, e_stack e = [f].

Definition loop_inv (e0 e : Env) : Prop :=
  e_defs e = e_defs e0 /\ e_wd e = e_wd e0 /\ e_tick_limit e = e_tick_limit e0 /\
  exists f f0, e_stack e = [f] /\ e_stack e0 = [f0] /\ f_exprs f = f_exprs f0.

Lemma loop_inv_refl : forall e, at_toplevel e -> loop_inv e e.
Proof. intros e [f Hf]. repeat split; auto. exists f, f. auto. Qed.

(* The state the body of t runs in when a loop that resets the tick counter reaches t in state e. *)
Definition body_input (e : Env) (t : Test) : Env :=
  set_stack (set_ticks e 0) (e_stack (set_ticks e 0) ++ [test_frame (t_nexprs t)]).

Lemma body_input_view : forall e0 e t, loop_inv e0 e -> view (body_input e t) = view (body_input e0 t).
Proof.
  intros e0 e t (Hd & Hw & Hl & f & f0 & Hs & Hs0 & Hx).
  unfold view, body_input, set_stack, set_ticks; cbn.
  rewrite Hd, Hw, Hl, Hs, Hs0. cbn. rewrite Hx. reflexivity.
Qed.

(* test_body_err_pos: caller_pos of the frame above the test frame, when there is one *)
Definition error_pos (x : Effect) : option N :=
  match x_result x with
  | None => None
  | Some _ => match nth_error (x_frames x) 1 with Some g => f_caller_pos g | None => None end
  end.

Lemma unless_interrupted : forall A (r : option EvalError) (a b : A),
  r <> Some Interrupted -> match r with Some Interrupted => a | _ => b end = b.
Proof. intros A [[]|] a b H; congruence. Qed.

Lemma run_one_toplevel : forall sh e0 e t,
  shape_isolates sh -> loop_inv e0 e ->
  let x := t_body t (body_input e t) in
  x_result x <> Some Interrupted ->
  exists e', run_one sh e t = ((t_name t, x_result x, error_pos x), e', false) /\ loop_inv e0 e'.
Proof.
  intros [r w p b] e0 e t (Hr & Hw & Hp) (Hd & Hwd & Hl & f & f0 & Hs & Hs0 & Hx) x Hni.
  cbn in Hr, Hw, Hp. subst r w p.
  unfold run_one. cbn [ls_reset_ticks ls_restore_wd ls_pop_to_toplevel ls_break_on_interrupt].
  fold (body_input e t). fold x. rewrite (unless_interrupted _ _ _ _ Hni).
  set (e4 := set_wd (after_eval (body_input e t) x) (e_wd (set_ticks e 0))).
  assert (Hs4 : e_stack e4 = match x_result x with
                             | None => [f]
                             | Some _ => {| f_values := f_values f + x_top_values x; f_blocks := f_blocks f;
                                            f_exprs := f_exprs f; f_caller_pos := f_caller_pos f |} :: x_frames x
                             end).
  { unfold e4, set_wd, after_eval, body_input, set_stack, set_ticks. cbn [e_stack]. rewrite Hs.
    destruct (x_result x); reflexivity. }
  exists (set_stack e4 (pop_to_toplevel (e_stack e4))). rewrite Hs4. split.
  - unfold error_pos. destruct (x_result x); reflexivity.
  - repeat split; try assumption. cbn [e_stack set_stack].
    destruct (x_result x); eexists; exists f0; cbn; auto.
Qed.

Lemma eval_tests_single : forall sh e t, verdict_alone sh e t = [fst (fst (run_one sh e t))].
Proof.
  intros. unfold verdict_alone, verdicts. cbn. destruct (run_one sh e t) as [[v e'] b]. destruct b; reflexivity.
Qed.

Lemma eval_tests_isolated : forall sh e0 ts e,
  shape_isolates sh -> at_toplevel e0 -> loop_inv e0 e -> Forall body_ok ts ->
  verdicts (eval_tests sh e ts) = flat_map (verdict_alone sh e0) ts /\ loop_inv e0 (snd (eval_tests sh e ts)).
Proof.
  intros sh e0 ts e Hsh Htop Hinv Hall. revert e Hinv.
  induction Hall as [|t ts [Hread Hni] _ IH]; intros e Hinv; [split; [reflexivity | exact Hinv]|].
  destruct (run_one_toplevel sh e0 e t Hsh Hinv (Hni _)) as (e' & Hrun & Hinv').
  destruct (run_one_toplevel sh e0 e0 t Hsh (loop_inv_refl e0 Htop) (Hni _)) as (e0' & Hrun0 & _).
  rewrite (Hread _ _ (body_input_view e0 e t Hinv)) in Hrun.
  destruct (IH e' Hinv') as [IHv IHe].
  cbn [eval_tests flat_map]. rewrite Hrun, eval_tests_single, Hrun0. unfold verdicts in *.
  destruct (eval_tests sh e' ts) as [vs e'']. cbn [fst snd app] in *. now rewrite IHv.
Qed.

Theorem verdict_independent_lemma : forall sh e ts,
  shape_isolates sh -> at_toplevel e -> Forall body_ok ts ->
  verdicts (eval_tests sh e ts) = flat_map (verdict_alone sh e) ts.
Proof. intros. apply eval_tests_isolated; auto using loop_inv_refl. Qed.

Theorem verdict_independent_filtered_lemma : forall sh e all name_contains,
  shape_isolates sh -> at_toplevel e -> Forall body_ok all ->
  verdicts (eval_tests sh e (select name_contains all)) = flat_map (verdict_alone sh e) (select name_contains all).
Proof. intros. apply verdict_independent_lemma; auto. unfold select. eapply incl_Forall; [apply incl_filter | auto]. Qed.

(* the interpreter is left at a clean top level, whatever the tests did *)
Theorem loop_leaves_toplevel_lemma : forall sh e ts,
  shape_isolates sh -> at_toplevel e -> Forall body_ok ts -> loop_inv e (snd (eval_tests sh e ts)).
Proof. intros. apply eval_tests_isolated; auto using loop_inv_refl. Qed.

Lemma body_of_ops_reads_only_view : forall ops, reads_only_view (body_of_ops ops).
Proof. intros ops e1 e2 H. unfold body_of_ops. now rewrite H. Qed.

(* Only `while True {}` without a tick budget ends in Interrupted (it stands for Ctrl-C). *)
Lemma run_ops_interrupted : forall ops budget st,
  x_result (run_ops budget st ops) = Some Interrupted -> budget = None /\ In OForever ops.
Proof.
  induction ops as [|o rest IH]; intros budget st; [discriminate|].
  assert (Hrec : forall st', x_result (run_ops budget st' rest) = Some Interrupted ->
                             budget = None /\ In OForever (o :: rest))
    by (intros st' H; destruct (IH _ _ H); auto with datatypes).
  destruct o; cbn [run_ops];
    try (destruct (match budget with Some b => _ | None => false end); [discriminate|]);
    try discriminate; try apply Hrec.
  - destruct (N.eqb _ _); [apply Hrec | discriminate].
  - destruct budget; [discriminate|]. auto with datatypes.
Qed.

Lemma body_of_ops_never_interrupted : forall ops, ~ In OForever ops -> never_interrupted (body_of_ops ops).
Proof. intros ops Hno e H. now apply run_ops_interrupted in H. Qed.

Lemma count_failed_pos : forall vs, 0 < count_failed vs <-> exists v, In v vs /\ failed v = true.
Proof.
  intros vs. unfold count_failed. split.
  - intros H. destruct (filter failed vs) as [|v l] eqn:E; [cbn in H; lia|].
    exists v. apply filter_In. rewrite E. now left.
  - intros (v & Hin & Hf). assert (In v (filter failed vs)) by (apply filter_In; auto).
    destruct (filter failed vs); [contradiction|cbn; lia].
Qed.

Theorem exit_honest_lemma : forall vs,
  (exit_code true vs = 1 <-> exists v, In v vs /\ failed v = true) /\
  (exit_code true vs = 0 <-> forall v, In v vs -> failed v = false) /\
  (exit_code true vs = 0 \/ exit_code true vs = 1).
Proof.
  intros vs. unfold exit_code. destruct (0 <? count_failed vs) eqn:E.
  - apply Nat.ltb_lt in E. pose proof (proj1 (count_failed_pos vs) E) as (v & Hin & Hf).
    repeat split; auto; try discriminate.
    + intros _. exists v; auto.
    + intros H. rewrite (H v Hin) in Hf. discriminate.
  - apply Nat.ltb_ge in E. assert (Hnone : forall v, In v vs -> failed v = false).
    { intros v Hin. destruct (failed v) eqn:Hf; auto. exfalso.
      assert (0 < count_failed vs) by (apply count_failed_pos; eauto). lia. }
    repeat split; auto; try discriminate.
    + intros (v & Hin & Hf). rewrite (Hnone v Hin) in Hf. discriminate.
Qed.

Lemma count_failed_le : forall vs, count_failed vs <= length vs.
Proof.
  intros vs. unfold count_failed. induction vs as [|v vs IH]; cbn; auto.
  destruct (failed v); cbn; lia.
Qed.

Lemma describe_lines : forall vs, fst (describe vs) = map (fun v => fst (fst v)) (filter failed vs).
Proof.
  intros vs. unfold describe. destruct (_ && _) eqn:E; [|reflexivity].
  apply andb_true_iff in E as [_ E]. apply Nat.eqb_eq, length_zero_iff_nil in E. now rewrite E.
Qed.

Lemma describe_summary : forall vs,
  let s := snd (describe vs) in
  summary_total s = length vs /\ summary_failed s = count_failed vs /\ summary_passed s = length vs - count_failed vs.
Proof.
  intros vs. unfold describe. pose proof (count_failed_le vs) as Hle.
  generalize dependent (count_failed vs). generalize (length vs). intros n k Hle.
  cbv zeta. rewrite (Nat.sub_add k n Hle).
  destruct k as [|k]; [rewrite Nat.sub_0_r; destruct n as [|[|n]] | cbn [Nat.eqb]; rewrite andb_false_r];
    cbn; auto.
Qed.

Theorem summary_counts_lemma : forall vs,
  let '(lines, s) := describe vs in
  summary_total s = length vs /\
  summary_failed s = count_failed vs /\
  summary_passed s = length vs - count_failed vs /\
  summary_passed s + summary_failed s = summary_total s /\
  lines = map (fun v => fst (fst v)) (filter failed vs) /\
  length lines = summary_failed s.
Proof.
  intros vs. pose proof (describe_lines vs) as Hl. pose proof (describe_summary vs) as (Ht & Hf & Hp).
  pose proof (count_failed_le vs). destruct (describe vs) as [lines s]. cbn [fst snd] in *.
  repeat split; auto; [lia|]. rewrite Hl, map_length, Hf. reflexivity.
Qed.

(* the unfixed loop violates independence: witnesses, by computation *)
Definition wd_tests : list Test :=
  [ test_of_ops [1%N] [OSetWd 7];  test_of_ops [2%N] [OAssertWd 7] ].
Definition tick_tests : list Test :=
  [ test_of_ops [1%N] [OForever];  test_of_ops [2%N] [OPass 1] ].

Lemma unfixed_wd_leak :
  verdicts (eval_tests shape_unfixed (initial_env 0 0 None) wd_tests)
  <> flat_map (verdict_alone shape_unfixed (initial_env 0 0 None)) wd_tests.
Proof. vm_compute. discriminate. Qed.

Lemma unfixed_tick_budget_shared :
  verdicts (eval_tests shape_unfixed (initial_env 0 0 (Some 100000%N)) tick_tests)
  <> flat_map (verdict_alone shape_unfixed (initial_env 0 0 (Some 100000%N))) tick_tests.
Proof. vm_compute. discriminate. Qed.

Theorem unfixed_loop_refuted_lemma :
  exists e ts, at_toplevel e /\
    Forall (fun t => reads_only_view (t_body t)) ts /\
    Forall (fun t => x_result (t_body t e) <> Some Interrupted) ts /\
    verdicts (eval_tests shape_unfixed e ts) <> flat_map (verdict_alone shape_unfixed e) ts.
Proof.
  exists (initial_env 0 0 None), wd_tests. split; [eexists; reflexivity|]. split.
  - repeat constructor; apply body_of_ops_reads_only_view.
  - split; [|exact unfixed_wd_leak].
    repeat constructor; apply body_of_ops_never_interrupted; cbn; intuition discriminate.
Qed.

(* a body that peeks at state outside the view breaks independence even in the fixed loop:
   the hypothesis is needed *)
Definition peeking_body : Body := fun e =>
  {| x_result := if (e_ids e =? 0)%N then None else Some AssertionFailed; x_ticks := 1; x_wd := e_wd e;
     x_calls := []; x_ids := 1; x_frames := [test_frame 0]; x_top_values := 0 |}.
Lemma hypothesis_needed :
  let ts := [ {| t_name := [1%N]; t_body := peeking_body; t_nexprs := 1 |};
              {| t_name := [2%N]; t_body := peeking_body; t_nexprs := 1 |} ] in
  ~ reads_only_view peeking_body /\
  verdicts (eval_tests shape_fixed (initial_env 0 0 None) ts) <> flat_map (verdict_alone shape_fixed (initial_env 0 0 None)) ts.
Proof.
  split.
  - intros H. specialize (H (initial_env 0 0 None)
       {| e_defs := 0; e_wd := 0; e_ticks := 0; e_tick_limit := None; e_prev_calls := []; e_ids := 1; e_stack := [fresh_toplevel] |}
       eq_refl). vm_compute in H. discriminate.
  - vm_compute. discriminate.
Qed.

(* non-vacuity: a mixed file under the fixed loop *)
Definition mixed_tests : list Test :=
  [ test_of_ops [1%N] [OSetWd 7; OPass 1];  test_of_ops [2%N] [OAssertWd 7];
    test_of_ops [3%N] [OThrow 3 2 1];       test_of_ops [4%N] [OPass 2; OFail];  test_of_ops [1%N; 2%N] [OPass 3] ].
Lemma mixed_example :
  run_tests_in_files shape_fixed true (initial_env 0 0 None) mixed_tests [] =
  ( [ ([1%N], None, None); ([2%N], Some AssertionFailed, None); ([3%N], Some Exception, Some 0%N);
      ([4%N], Some AssertionFailed, None); ([1%N; 2%N], None, None) ],
    ( [ [2%N]; [3%N]; [4%N] ], RanMixed 5 2 3 ), 1 )
  /\ run_tests_in_files shape_fixed true (initial_env 0 0 None) mixed_tests [1%N] =
  ( [ ([1%N], None, None); ([1%N; 2%N], None, None) ], ( [], RanAllPassed 2 ), 0 ).
Proof. vm_compute. split; reflexivity. Qed.

Lemma mixed_tests_satisfy_hypotheses : Forall body_ok mixed_tests.
Proof.
  repeat constructor; try apply body_of_ops_reads_only_view;
    apply body_of_ops_never_interrupted; cbn; intuition discriminate.
Qed.
