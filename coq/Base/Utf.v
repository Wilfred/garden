(* Utf -- MODEL of Rust `char` / `&str` byte arithmetic.

   Definitions only (proofs are in UtfProps.v).

   A Rust `&str` is modelled as the list of its Unicode scalar values
   (`char`s), each an `N`.  Rust addresses a `&str` by BYTE offsets into its
   UTF-8 encoding; slicing `&s[a..b]` at an offset that is not a character
   boundary panics.  Nothing here requires the numbers to be valid scalar
   values: every definition is total on `N` (a value >= 0x10000 counts as a
   4-byte char), so theorems over `list N` cover every `&str`.

   Modelled, not verified: the semantics of the Rust std functions named in
   the comments (`char::len_utf8`, `char::len_utf16`, `char::is_whitespace`,
   `str::len`, `str::is_char_boundary`, slicing, `str::find`). *)
From Coq Require Import NArith Bool List.
Import ListNotations.
Open Scope N_scope.

Definition LF : N := 10.
Definition CR : N := 13.

(* Is c a Unicode scalar value (what a Rust `char` can hold)? *)
Definition is_scalar (c : N) : bool :=
  (c <? 55296) || ((57344 <=? c) && (c <? 1114112)).

(* char::len_utf8 / char::len_utf16 *)
Definition len_utf8 (c : N) : N :=
  if c <? 128 then 1 else if c <? 2048 then 2 else if c <? 65536 then 3 else 4.
Definition len_utf16 (c : N) : N := if c <? 65536 then 1 else 2.

(* char::is_whitespace = the Unicode White_Space property (25 code points):
   U+0009..U+000D, U+0020, U+0085, U+00A0, U+1680, U+2000..U+200A, U+2028,
   U+2029, U+202F, U+205F, U+3000. *)
Definition is_whitespace (c : N) : bool :=
  ((9 <=? c) && (c <=? 13))
  || (c =? 32) || (c =? 133) || (c =? 160) || (c =? 5760)
  || ((8192 <=? c) && (c <=? 8202))
  || (c =? 8232) || (c =? 8233) || (c =? 8239) || (c =? 8287) || (c =? 12288).

(* str::len (bytes) and encode_utf16().count() of a char list *)
Fixpoint blen (s : list N) : N :=
  match s with [] => 0 | c :: r => len_utf8 c + blen r end.
Fixpoint ulen (s : list N) : N :=
  match s with [] => 0 | c :: r => len_utf16 c + ulen r end.

(* Split at byte offset o: (s[..o], s[o..]).  None when o is past the end or
   not on a character boundary (where Rust's slicing panics). *)
Fixpoint split_bytes (s : list N) (o : N) {struct s} : option (list N * list N) :=
  if o =? 0 then Some ([], s) else
  match s with
  | [] => None
  | c :: r =>
    if o <? len_utf8 c then None else
    match split_bytes r (o - len_utf8 c) with
    | Some (p, q) => Some (c :: p, q)
    | None => None
    end
  end.

(* str::is_char_boundary, computed *)
Definition is_boundary (s : list N) (o : N) : bool :=
  match split_bytes s o with Some _ => true | None => false end.

(* "offset o is a char boundary of s", declaratively: o is the byte length of
   a prefix of s. *)
Definition boundary (s : list N) (o : N) : Prop :=
  exists p q, s = p ++ q /\ blen p = o.

(* &s[o..] and &s[0..o]; None = panic *)
Definition drop_bytes (s : list N) (o : N) : option (list N) :=
  match split_bytes s o with Some (_, q) => Some q | None => None end.
Definition take_bytes (s : list N) (o : N) : option (list N) :=
  match split_bytes s o with Some (p, _) => Some p | None => None end.

(* &s[a..b]; None = panic *)
Definition slice (s : list N) (a b : N) : option (list N) :=
  if b <? a then None else
  match drop_bytes s a with
  | None => None
  | Some r => take_bytes r (b - a)
  end.

(* s.find('\n'): byte index of the first `\n` *)
Fixpoint find_lf (s : list N) : option N :=
  match s with
  | [] => None
  | c :: r =>
    if c =? LF then Some 0 else
    match find_lf r with Some i => Some (len_utf8 c + i) | None => None end
  end.

(* number of `\n` in s *)
Fixpoint count_lf (s : list N) : N :=
  match s with [] => 0 | c :: r => (if c =? LF then 1 else 0) + count_lf r end.

(* the part of s after its last `\n` (all of s when it has none) *)
Fixpoint after_last_lf (s : list N) : list N :=
  match s with
  | [] => []
  | c :: r =>
    if 0 <? count_lf r then after_last_lf r
    else if c =? LF then r else c :: r
  end.
