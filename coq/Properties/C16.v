(* C16 -- Programs that pass `check` raise no runtime type errors.
   Statements only; proofs in TypingSound.v (closed examples are evaluated here).

   SCOPE (be precise): `tc_prog` is the MODEL checker of Typing.v for the
   first-order core (Int/Bool/String/List<Int> literals, Option<T> values with
   Some/None, variables, let, assignment, += / -=, operators, if / if-else,
   `match` on an Option with exactly the arms Some(x) and None, while,
   `for x in <List<Int>>`, blocks, pairs `(a, b)` with the destructuring
   `let (x, y) = e`, println, string_repr, early `return e`,
   calls of fully annotated top-level functions) and `run` is the
   MODEL big-step semantics of that fragment, in which every type-related
   runtime error class of the property is the outcome TypeError.  The theorem
   says nothing about src/checks/type_checker.rs directly; the tie is the
   verdict correspondence of tools/props/C16.py (every generated program that
   `tc_prog` accepts must be accepted by `garden check`) plus the search that
   runs check-accepted programs on the real interpreter. *)
From Coq Require Import ZArith NArith Bool List.
From Garden Require Import Typing TypingSound.
Import ListNotations.

Theorem tc_sound_core : forall p, tc_prog p = true -> forall fuel, run fuel p <> TypeError.
Proof. exact tc_sound. Qed.
Print Assumptions tc_sound_core.

(* the two halves behind it, for every expression: progress + preservation in
   big-step form (`good`: never TypeErr; a result has the checked type and the
   environment still matches the typing context) *)
Theorem tc_progress_preservation : forall F, fenv_ok F -> forall k n rt G r e t,
  tc n F rt G e = Some t -> env_ok G r -> good rt t G (ev k F r e).
Proof. exact ev_sound. Qed.
Print Assumptions tc_progress_preservation.

(* the hypothesis is satisfiable by a program with a call, a loop and output *)
Example tc_accepts_example : tc_prog ex_good = true /\ run 100 ex_good = Finished (VBool true).
Proof. split; vm_compute; reflexivity. Qed.
Print Assumptions tc_accepts_example.

(* and the checker is not vacuous the other way: an ill-typed call is rejected, and it does fail *)
Example tc_rejects_example : tc_prog ex_bad = false /\ run 100 ex_bad = TypeError.
Proof. split; vm_compute; reflexivity. Qed.
Print Assumptions tc_rejects_example.

(* The same statement as tc_sound_core (`tc_prog` / `run` cover Option / match / for /
   return / pairs), restated under the name the documents use. *)
Theorem tc_sound_core_option_match_for_return :
  forall p, tc_prog p = true -> forall fuel, run fuel p <> TypeError.
Proof. exact tc_sound. Qed.
Print Assumptions tc_sound_core_option_match_for_return.

(* subsumption used at calls, assignments, returns, function results and branch joins *)
Theorem subtyping_sound : forall v a b, has_type v a = true -> sub a b = true -> has_type v b = true.
Proof. exact sub_sound. Qed.
Print Assumptions subtyping_sound.

(* non-vacuity: a program with a for loop, an early return, Option values and two
   matches is accepted and runs to a value; the early return yields Some(5) *)
Example tc_accepts_match_for_return :
  tc_prog ex_wide = true /\ run 200 ex_wide = Finished (VInt 0).
Proof. split; vm_compute; reflexivity. Qed.
Print Assumptions tc_accepts_match_for_return.

Example early_return_value :
  run 200 {| pfuns := [(1%N, ex_first_big)]; pmain := [TmCall 1%N [TmList [TmInt 1; TmInt 5; TmInt 9]; TmInt 3]] |}
  = Finished (VSome (VInt 5)).
Proof. vm_compute. reflexivity. Qed.
Print Assumptions early_return_value.

(* a non-exhaustive match is a type-related runtime error of the model semantics, and tc rejects it *)
Example tc_rejects_nonexhaustive_match : tc_prog ex_nonexh = false /\ run 100 ex_nonexh = TypeError.
Proof. split; vm_compute; reflexivity. Qed.
Print Assumptions tc_rejects_nonexhaustive_match.

(* pairs and destructuring let: accepted and runs; destructuring a non-pair is rejected and fails *)
Example tc_accepts_pairs : tc_prog ex_pairs = true /\ run 100 ex_pairs = Finished (VInt 4).
Proof. split; vm_compute; reflexivity. Qed.
Print Assumptions tc_accepts_pairs.

Example tc_rejects_bad_destructuring : tc_prog ex_badpair = false /\ run 100 ex_badpair = TypeError.
Proof. split; vm_compute; reflexivity. Qed.
Print Assumptions tc_rejects_bad_destructuring.
