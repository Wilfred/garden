From Coq Require Import NArith Bool List Lia.
From Garden Require Import Base.Utf.
Import ListNotations.
Open Scope N_scope.

Lemma len_utf8_range : forall c, 1 <= len_utf8 c <= 4.
Proof.
  intro c. unfold len_utf8.
  destruct (c <? 128); [lia|]. destruct (c <? 2048); [lia|]. destruct (c <? 65536); lia.
Qed.

Lemma len_utf8_ascii : forall c, c < 128 -> len_utf8 c = 1.
Proof. intros c H. unfold len_utf8. apply N.ltb_lt in H. now rewrite H. Qed.

Lemma blen_app : forall a b, blen (a ++ b) = blen a + blen b.
Proof. induction a as [|c a IH]; intro b; cbn [blen app]; [reflexivity|]. rewrite IH. lia. Qed.

Lemma blen_single : forall c, blen [c] = len_utf8 c.
Proof. intro c. cbn [blen]. lia. Qed.

Lemma blen_nonempty : forall m, m <> [] -> 1 <= blen m.
Proof.
  intros [|c m] H; [congruence|]. cbn [blen]. pose proof (len_utf8_range c). lia.
Qed.

Lemma split_bytes_0 : forall s, split_bytes s 0 = Some ([], s).
Proof. destruct s; reflexivity. Qed.

Lemma split_bytes_app : forall p q, split_bytes (p ++ q) (blen p) = Some (p, q).
Proof.
  induction p as [|c p IH]; intro q.
  - apply split_bytes_0.
  - cbn [app blen split_bytes]. pose proof (len_utf8_range c) as Hc.
    destruct (N.eqb_spec (len_utf8 c + blen p) 0) as [E|_]; [lia|].
    destruct (N.ltb_spec (len_utf8 c + blen p) (len_utf8 c)) as [L|_]; [lia|].
    replace (len_utf8 c + blen p - len_utf8 c) with (blen p) by lia.
    now rewrite IH.
Qed.

Lemma split_bytes_sound : forall s o p q, split_bytes s o = Some (p, q) -> s = p ++ q /\ blen p = o.
Proof.
  induction s as [|c s IH]; intros o p q H.
  - cbn in H. destruct (N.eqb_spec o 0) as [E|E]; [|discriminate].
    inversion H; subst. now split.
  - cbn [split_bytes] in H. destruct (N.eqb_spec o 0) as [E|E].
    + inversion H; subst. now split.
    + destruct (N.ltb_spec o (len_utf8 c)) as [L|L]; [discriminate|].
      destruct (split_bytes s (o - len_utf8 c)) as [[p' q']|] eqn:E'; [|discriminate].
      inversion H; subst. apply IH in E'. destruct E' as [-> E2].
      split; [reflexivity|]. cbn [blen]. lia.
Qed.

Lemma split_bytes_app_le : forall p x o, o <= blen p ->
  split_bytes (p ++ x) o = match split_bytes p o with Some (a, b) => Some (a, b ++ x) | None => None end.
Proof.
  induction p as [|c p IH]; intros x o L.
  - cbn [blen] in L. assert (o = 0) as -> by lia. cbn [app]. rewrite !split_bytes_0. reflexivity.
  - cbn [app split_bytes]. destruct (o =? 0) eqn:E; [reflexivity|].
    destruct (o <? len_utf8 c) eqn:E2; [reflexivity|].
    apply N.ltb_ge in E2. cbn [blen] in L. rewrite IH by lia.
    destruct (split_bytes p (o - len_utf8 c)) as [[a b]|]; reflexivity.
Qed.

Lemma drop_bytes_app : forall p q, drop_bytes (p ++ q) (blen p) = Some q.
Proof. intros. unfold drop_bytes. now rewrite split_bytes_app. Qed.

Lemma take_bytes_app : forall p q, take_bytes (p ++ q) (blen p) = Some p.
Proof. intros. unfold take_bytes. now rewrite split_bytes_app. Qed.

Lemma count_lf_app : forall a b, count_lf (a ++ b) = count_lf a + count_lf b.
Proof. induction a as [|c a IH]; intro b; cbn [count_lf app]; [reflexivity|]. rewrite IH. lia. Qed.

Lemma count_lf_cons_ne : forall c m, c <> LF -> count_lf (c :: m) = count_lf m.
Proof. intros c m H. cbn [count_lf]. destruct (N.eqb_spec c LF); [contradiction|]. lia. Qed.

Lemma count_lf_single : forall c, c <> LF -> count_lf [c] = 0.
Proof. intros c H. now rewrite count_lf_cons_ne. Qed.

Lemma count_lf_cons0 : forall c m, count_lf (c :: m) = 0 -> c <> LF /\ count_lf m = 0.
Proof.
  intros c m H. cbn [count_lf] in H. destruct (N.eqb_spec c LF) as [->|Hn]; [lia|]. split; [exact Hn|lia].
Qed.

Lemma after_last_lf_nolf : forall m, count_lf m = 0 -> after_last_lf m = m.
Proof.
  induction m as [|c m IH]; intro H; [reflexivity|].
  cbn [count_lf] in H. cbn [after_last_lf].
  destruct (N.eqb_spec c LF) as [E|E]; [lia|].
  assert (H0 : count_lf m = 0) by lia. rewrite H0. reflexivity.
Qed.

Lemma after_last_lf_app_nolf : forall p m, count_lf m = 0 ->
  after_last_lf (p ++ m) = after_last_lf p ++ m.
Proof.
  induction p as [|c p IH]; intros m H.
  - cbn [app after_last_lf]. now apply after_last_lf_nolf.
  - cbn [app after_last_lf]. rewrite count_lf_app, H, N.add_0_r.
    destruct (0 <? count_lf p); [now apply IH|].
    destruct (c =? LF); reflexivity.
Qed.

Lemma after_last_lf_app_lf : forall p m, 0 < count_lf m -> after_last_lf (p ++ m) = after_last_lf m.
Proof.
  induction p as [|c p IH]; intros m H; [reflexivity|].
  cbn [app after_last_lf]. rewrite count_lf_app.
  destruct (N.ltb_spec 0 (count_lf p + count_lf m)); [now apply IH|lia].
Qed.

Lemma find_lf_some : forall s i, find_lf s = Some i ->
  exists m r, s = m ++ LF :: r /\ blen m = i /\ count_lf m = 0.
Proof.
  induction s as [|c s IH]; intros i H; [discriminate|].
  cbn [find_lf] in H. destruct (N.eqb_spec c LF) as [E|E].
  - inversion H; subst. now exists [], s.
  - destruct (find_lf s) as [j|] eqn:Ej; [|discriminate]. inversion H; subst.
    destruct (IH j eq_refl) as (m & r & -> & Hb & Hc).
    exists (c :: m), r. cbn [app blen count_lf]. repeat split; [lia|].
    destruct (N.eqb_spec c LF); [contradiction|]. lia.
Qed.

Lemma find_lf_none : forall s, find_lf s = None -> count_lf s = 0.
Proof.
  induction s as [|c s IH]; intro H; [reflexivity|].
  cbn [find_lf] in H. cbn [count_lf]. destruct (N.eqb_spec c LF) as [E|E]; [discriminate|].
  destruct (find_lf s); [discriminate|]. now rewrite IH.
Qed.

Lemma is_boundary_iff : forall s o, is_boundary s o = true <-> boundary s o.
Proof.
  intros s o. unfold boundary, is_boundary. split.
  - destruct (split_bytes s o) as [[p q]|] eqn:E; [|discriminate].
    intros _. apply split_bytes_sound in E. now exists p, q.
  - intros (p & q & -> & <-). now rewrite split_bytes_app.
Qed.

Lemma slice_sound : forall s a b m, slice s a b = Some m ->
  exists p q, s = p ++ m ++ q /\ blen p = a /\ blen m = b - a /\ a <= b.
Proof.
  intros s a b m H. unfold slice in H. destruct (b <? a) eqn:E; [discriminate|]. apply N.ltb_ge in E.
  unfold drop_bytes, take_bytes in H.
  destruct (split_bytes s a) as [[p r]|] eqn:E1; [|discriminate].
  destruct (split_bytes r (b - a)) as [[m' q]|] eqn:E2; [|discriminate]. inversion H; subst m'.
  destruct (split_bytes_sound _ _ _ _ E1) as [-> Hp]. destruct (split_bytes_sound _ _ _ _ E2) as [-> Hm].
  exists p, q. auto.
Qed.

Lemma prefixes_nest : forall p1 q1 p2 q2, p1 ++ q1 = p2 ++ q2 -> blen p1 <= blen p2 ->
  exists m, p2 = p1 ++ m /\ q1 = m ++ q2.
Proof.
  induction p1 as [|c p1 IH]; intros q1 p2 q2 H L.
  - exists p2. now cbn in *.
  - destruct p2 as [|c2 p2].
    + cbn [blen] in L. pose proof (len_utf8_range c). lia.
    + cbn [app] in H. inversion H; subst. cbn [blen] in L.
      destruct (IH q1 p2 q2 H2) as (m & -> & ->); [lia|]. now exists m.
Qed.

Lemma prefix_unique : forall p1 q1 p2 q2, p1 ++ q1 = p2 ++ q2 -> blen p1 = blen p2 -> p1 = p2 /\ q1 = q2.
Proof.
  intros p1 q1 p2 q2 H L. destruct (prefixes_nest p1 q1 p2 q2 H) as (m & -> & ->); [lia|].
  rewrite blen_app in L. destruct m as [|c m]; [now rewrite app_nil_r|].
  cbn [blen] in L. pose proof (len_utf8_range c). lia.
Qed.
