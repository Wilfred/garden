(* Basic facts about scopes, environments and the reference semantics of Scope.v; more fuel does not change an
   outcome; and the simulation argument that the refactorings of Refactor.v share. *)
From Coq Require Import List Arith Lia.
Import ListNotations.
Require Import Garden.Scope.

Definition scope_of_frame (fr : frame) : sframe := map (fun e => (fst (fst e), snd (fst e))) fr.
Definition scope_of (r : env) : scope := map scope_of_frame r.

(* the scope after the lets of bl, run in sc *)
Fixpoint block_scope (bl : block) (sc : scope) : scope :=
  match bl with
  | BNil => sc
  | BCons s r => block_scope r (stmt_scope s sc)
  end.

Lemma tl_push_s x d sc fr : tl (push_s x d (fr :: sc)) = sc.
Proof. reflexivity. Qed.

Lemma stmt_scope_cons s fr sc : exists fr', stmt_scope s (fr :: sc) = fr' :: sc.
Proof. destruct s; simpl; eauto. Qed.

Lemma block_scope_cons bl : forall fr sc, exists fr', block_scope bl (fr :: sc) = fr' :: sc.
Proof.
  induction bl as [|s r IH]; intros fr sc; simpl; eauto.
  destruct (stmt_scope_cons s fr sc) as [fr' ->]. apply IH.
Qed.

Lemma tl_block_scope bl fr sc : tl (block_scope bl (fr :: sc)) = sc.
Proof. destruct (block_scope_cons bl fr sc) as [fr' ->]. reflexivity. Qed.

Lemma scope_of_tl r : scope_of (tl r) = tl (scope_of r).
Proof. destruct r; reflexivity. Qed.

Lemma scope_of_push x d v r : scope_of (push_binding x d v r) = push_s x d (scope_of r).
Proof. destruct r; reflexivity. Qed.

Lemma bind_params_scope ps : forall vs acc,
  length ps = length vs ->
  scope_of_frame (bind_params ps vs acc) = params_frame ps ++ scope_of_frame acc.
Proof.
  unfold params_frame. induction ps as [|[d x] ps IH]; simpl; intros vs acc Hlen; destruct vs; try discriminate; auto.
  injection Hlen as Hlen. rewrite IH by exact Hlen. simpl. rewrite <- app_assoc. reflexivity.
Qed.

Lemma assign_frame_none fr x v : lookup_frame fr x = None -> assign_frame fr x v = None.
Proof.
  induction fr as [|[[y d] w] fr IH]; simpl; auto.
  destruct (Nat.eqb x y); [discriminate|]. intros H. rewrite (IH H). reflexivity.
Qed.

Lemma assign_none r x v : lookup r x = None -> assign r x v = None.
Proof.
  induction r as [|fr r IH]; simpl; auto.
  destruct (lookup_frame fr x) eqn:E; [discriminate|]. intros H.
  rewrite (assign_frame_none _ _ v E), (IH H). reflexivity.
Qed.

Lemma assign_frame_scope fr x v : forall fr1, assign_frame fr x v = Some fr1 -> scope_of_frame fr1 = scope_of_frame fr.
Proof.
  induction fr as [|[[y d] w] fr IH]; simpl; intros fr1 H; [discriminate|].
  destruct (Nat.eqb x y); [inversion H; reflexivity|].
  destruct (assign_frame fr x v) as [fr2|]; inversion H. simpl. rewrite (IH fr2); reflexivity.
Qed.

Lemma assign_scope r x v : forall r1, assign r x v = Some r1 -> scope_of r1 = scope_of r.
Proof.
  induction r as [|fr r IH]; simpl; intros r1 H; [discriminate|].
  destruct (assign_frame fr x v) as [fr1|] eqn:E.
  - inversion H. simpl. rewrite (assign_frame_scope _ _ _ _ E). reflexivity.
  - destruct (assign r x v) as [r2|]; inversion H. simpl. rewrite (IH r2); reflexivity.
Qed.

Lemma eval_block_cons funs f r s rest :
  rest <> BNil ->
  eval_block funs (S f) r (BCons s rest) = bind (exec_stmt funs f r s) (fun r1 _ => eval_block funs f r1 rest).
Proof. destruct rest; [congruence|reflexivity]. Qed.

Lemma bind_cong {A B} (m m2 : outcome A) (k k2 : env -> A -> outcome B) :
  (m <> OutOfFuel -> m2 = m) ->
  (forall r a, k r a <> OutOfFuel -> k2 r a = k r a) ->
  bind m k <> OutOfFuel -> bind m2 k2 = bind m k.
Proof.
  intros Hm Hk H. destruct m as [o r a|o e|]; simpl in *.
  - rewrite Hm by discriminate. simpl. rewrite (Hk r a); auto.
    intros E. rewrite E in H. congruence.
  - rewrite Hm by discriminate. reflexivity.
  - congruence.
Qed.

(* one step in comparing the body of an evaluator at two amounts of fuel: through a bind (its first part is a recursive
   call, settled by the induction hypothesis), or by cases on what the body branches on *)
Ltac mono_step :=
  match goal with
  | H : bind ?m ?k <> OutOfFuel |- bind ?m2 ?k2 = bind ?m ?k =>
      apply (bind_cong m m2 k k2);
      [ solve [auto] | let r := fresh "r" in let a := fresh "a" in let Hk := fresh "Hk" in
                       intros r a Hk; cbv beta in Hk |- * | exact H ]
  | |- ?x = ?x => reflexivity
  | H : match ?v with _ => _ end <> OutOfFuel |- _ => destruct v; try reflexivity; try (exfalso; apply H; reflexivity)
  | H : (if ?c then _ else _) <> OutOfFuel |- _ => destruct c; try reflexivity
  end.

Section Mono.
  Variable funs : list fundef.

  Definition mono_at f f' :=
    (forall r e, eval_expr funs f r e <> OutOfFuel -> eval_expr funs f' r e = eval_expr funs f r e) /\
    (forall r es, eval_args funs f r es <> OutOfFuel -> eval_args funs f' r es = eval_args funs f r es) /\
    (forall r bl, eval_block funs f r bl <> OutOfFuel -> eval_block funs f' r bl = eval_block funs f r bl) /\
    (forall r s, exec_stmt funs f r s <> OutOfFuel -> exec_stmt funs f' r s = exec_stmt funs f r s).

  Lemma eval_mono : forall f f', f <= f' -> mono_at f f'.
  Proof.
    induction f as [|f IH]; intros f' Hle.
    { repeat split; intros r x H; simpl in H; congruence. }
    destruct f' as [|f']; [lia|]. destruct (IH f' (le_S_n _ _ Hle)) as [IHe [IHa [IHb IHs]]].
    repeat split.
    - intros r e H. destruct e; simpl in H |- *; repeat mono_step.
    - intros r es H. destruct es; simpl in H |- *; repeat mono_step.
    - intros r bl H. destruct bl as [|s [|s2 rest]]; simpl in H |- *; repeat mono_step; auto.
    - intros r s H. destruct s; simpl in H |- *; repeat mono_step; auto.
  Qed.

  Lemma eval_mono_step f : mono_at f (S f).
  Proof. apply eval_mono. auto. Qed.

  Lemma eval_block_mono f f' r bl :
    f <= f' -> eval_block funs f r bl <> OutOfFuel -> eval_block funs f' r bl = eval_block funs f r bl.
  Proof. intros Hle. apply (eval_mono f f' Hle). Qed.
End Mono.

(* Simulation. A source program and a target program that differ in three ways run alike:
   - names: the binder with occurrence id d, called x in the source, is called rho (Some d) x in the target, and a use
     of x reads rho od x there, od being the binder it resolves to (None: no local binder). `ok (Some d) x` says that
     the binder d may be called x, `ok None x` that x may be used; rho has to be injective on such names;
   - the target may have dbg(..) around some sub-expressions, never two new ones directly around each other (if wraps);
   - the frames of the target may hold additional bindings, under names that nothing uses (extra).
   What the two print is compared by outs: equal, or with debug lines inserted in the target's.
   The code relation is indexed by the static scope at the point of the source; it is the scope of the source's
   environment throughout (scope_of), which is how the evaluation of a use knows the id of its binder. *)

Definition option_rel {A B} (R : A -> B -> Prop) (a : option A) (b : option B) : Prop :=
  match a, b with
  | Some x, Some y => R x y
  | None, None => True
  | _, _ => False
  end.

Lemma Forall2_len {A B} (R : A -> B -> Prop) l l' : Forall2 R l l' -> length l = length l'.
Proof. induction 1; simpl; auto. Qed.

Section Simulation.
  Variable rho : option oid -> name -> name.
  Variable ok : option oid -> name -> Prop.
  Variable extra : name -> Prop.
  Variable wraps : Prop.

  Definition use_name (sc : scope) (x : name) : name := rho (lookup_s sc x) x.
  Definition rho_params (ps : list (oid * name)) : list (oid * name) :=
    map (fun p => (fst p, rho (Some (fst p)) (snd p))) ps.
  Definition okps (ps : list (oid * name)) : Prop := Forall (fun p => ok (Some (fst p)) (snd p)) ps.

  Inductive sim_e : scope -> expr -> expr -> Prop :=
  | SE_wrap sc e e' : wraps -> sim_c sc e e' -> sim_e sc e (EDbg e')
  | SE_core sc e e' : sim_c sc e e' -> sim_e sc e e'
  with sim_c : scope -> expr -> expr -> Prop :=
  | SC_int sc z : sim_c sc (EInt z) (EInt z)
  | SC_bool sc b : sim_c sc (EBool b) (EBool b)
  | SC_var sc u x x' : ok None x -> x' = use_name sc x -> sim_c sc (EVar u x) (EVar u x')
  | SC_bin sc op l l' r r' : sim_e sc l l' -> sim_e sc r r' -> sim_c sc (EBin op l r) (EBin op l' r')
  | SC_call sc f f' a a' : sim_e sc f f' -> sim_es sc a a' -> sim_c sc (ECall f a) (ECall f' a')
  | SC_fun sc ps ps' b b' :
      okps ps -> ps' = rho_params ps -> sim_b (params_frame ps :: sc) b b' -> sim_c sc (EFun ps b) (EFun ps' b')
  | SC_if sc c c' t t' e e' :
      sim_e sc c c' -> sim_b ([] :: sc) t t' -> sim_b ([] :: sc) e e' -> sim_c sc (EIf c t e) (EIf c' t' e')
  | SC_dbg sc e e' : sim_e sc e e' -> sim_c sc (EDbg e) (EDbg e')
  | SC_print sc e e' : sim_e sc e e' -> sim_c sc (EPrint e) (EPrint e')
  with sim_es : scope -> exprs -> exprs -> Prop :=
  | SES_nil sc : sim_es sc ENil ENil
  | SES_cons sc e e' r r' : sim_e sc e e' -> sim_es sc r r' -> sim_es sc (ECons e r) (ECons e' r')
  with sim_b : scope -> block -> block -> Prop :=
  | SB_nil sc : sim_b sc BNil BNil
  | SB_cons sc s s' r r' : sim_s sc s s' -> sim_b (stmt_scope s sc) r r' -> sim_b sc (BCons s r) (BCons s' r')
  with sim_s : scope -> stmt -> stmt -> Prop :=
  | SS_let sc d x x' e e' : ok (Some d) x -> x' = rho (Some d) x -> sim_e sc e e' -> sim_s sc (SLet d x e) (SLet d x' e')
  | SS_assign sc u x x' e e' :
      ok None x -> x' = use_name sc x -> sim_e sc e e' -> sim_s sc (SAssign u x e) (SAssign u x' e')
  | SS_expr sc e e' : sim_e sc e e' -> sim_s sc (SExpr e) (SExpr e')
  | SS_while sc c c' b b' : sim_e sc c c' -> sim_b ([] :: sc) b b' -> sim_s sc (SWhile c b) (SWhile c' b').

  Definition sim_fun (fd fd' : fundef) : Prop :=
    okps (fd_params fd) /\ fd_params fd' = rho_params (fd_params fd)
    /\ sim_b [params_frame (fd_params fd)] (fd_body fd) (fd_body fd').

  Inductive vrel : value -> value -> Prop :=
  | VR_int z : vrel (VInt z) (VInt z)
  | VR_bool b : vrel (VBool b) (VBool b)
  | VR_unit : vrel VUnit VUnit
  | VR_fun f : vrel (VFun f) (VFun f)
  | VR_clo r r' ps b b' :
      erel r r' -> okps ps -> sim_b (params_frame ps :: scope_of r) b b' ->
      vrel (VClo r ps b) (VClo r' (rho_params ps) b')
  with erel : env -> env -> Prop :=
  | ER_nil : erel [] []
  | ER_cons fr fr' r r' : frel fr fr' -> erel r r' -> erel (fr :: r) (fr' :: r')
  with frel : frame -> frame -> Prop :=
  | FR_nil : frel [] []
  | FR_cons x d v v' fr fr' :
      ok (Some d) x -> vrel v v' -> frel fr fr' -> frel ((x, d, v) :: fr) ((rho (Some d) x, d, v') :: fr')
  | FR_extra x d v fr fr' : extra x -> frel fr fr' -> frel fr ((x, d, v) :: fr').

  Hypothesis rho_none : forall x, rho None x = x.
  Hypothesis rho_inj : forall od x d y, ok od x -> ok (Some d) y -> x <> y -> rho od x <> rho (Some d) y.
  Hypothesis rho_extra : forall od x, ok od x -> ~ extra (rho od x).

  Lemma rho_miss od x d y : ok od x -> ok (Some d) y -> x <> y -> Nat.eqb (rho od x) (rho (Some d) y) = false.
  Proof. intros. apply Nat.eqb_neq. apply rho_inj; auto. Qed.

  Lemma rho_miss_extra od x z : ok od x -> extra z -> Nat.eqb (rho od x) z = false.
  Proof. intros Hx Hz. apply Nat.eqb_neq. intros E. apply (rho_extra od x Hx). rewrite E. exact Hz. Qed.

  Lemma frel_lookup fr fr' x : frel fr fr' ->
    match lookup_frame_s (scope_of_frame fr) x with
    | Some d => ok (Some d) x /\ exists v v',
                  lookup_frame fr x = Some v /\ lookup_frame fr' (rho (Some d) x) = Some v' /\ vrel v v'
    | None => lookup_frame fr x = None /\ forall od, ok od x -> lookup_frame fr' (rho od x) = None
    end.
  Proof.
    induction 1 as [|y d w w' fr fr' Hok Hw Hfr IH|z d w fr fr' Hz Hfr IH]; simpl; auto.
    - destruct (Nat.eqb_spec x y) as [->|Hne].
      + rewrite Nat.eqb_refl. split; [exact Hok|]. exists w, w'. auto.
      + destruct (lookup_frame_s (scope_of_frame fr) x) as [dx|]; destruct IH as [H1 H2]; split; auto.
        * rewrite rho_miss; auto.
        * intros od Hod. rewrite rho_miss; auto.
    - destruct (lookup_frame_s (scope_of_frame fr) x) as [dx|]; destruct IH as [H1 H2]; split; auto.
      + rewrite rho_miss_extra; auto.
      + intros od Hod. rewrite rho_miss_extra; auto.
  Qed.

  Lemma erel_lookup r r' x : erel r r' -> ok None x ->
    match lookup_s (scope_of r) x with
    | Some d => ok (Some d) x /\ exists v v', lookup r x = Some v /\ lookup r' (rho (Some d) x) = Some v' /\ vrel v v'
    | None => lookup r x = None /\ lookup r' x = None
    end.
  Proof.
    induction 1 as [|fr fr' r r' Hfr Hr IH]; simpl; intros Hx; auto.
    pose proof (frel_lookup fr fr' x Hfr) as HF.
    destruct (lookup_frame_s (scope_of_frame fr) x) as [d|].
    - destruct HF as [Hok [v [v' [-> [-> Hv]]]]]. split; [exact Hok|]. exists v, v'. auto.
    - destruct HF as [-> HF]. specialize (IH Hx). destruct (lookup_s (scope_of r) x) as [d|].
      + destruct IH as [Hok IH]. rewrite (HF (Some d) Hok). auto.
      + specialize (HF None Hx). rewrite rho_none in HF. rewrite HF. exact IH.
  Qed.

  Lemma frel_assign fr fr' x d v v' : frel fr fr' -> vrel v v' -> lookup_frame_s (scope_of_frame fr) x = Some d ->
    exists fr1 fr1', assign_frame fr x v = Some fr1 /\ assign_frame fr' (rho (Some d) x) v' = Some fr1' /\ frel fr1 fr1'.
  Proof.
    intros Hfr Hv. induction Hfr as [|y dy w w' fr fr' Hok Hw Hfr IH|z dz w fr fr' Hz Hfr IH]; simpl; intros Hs.
    - discriminate.
    - destruct (Nat.eqb_spec x y) as [->|Hne].
      + inversion Hs; subst. rewrite Nat.eqb_refl. eexists _, _. split; [reflexivity|]. split; [reflexivity|].
        constructor; auto.
      + pose proof (frel_lookup fr fr' x Hfr) as HF. rewrite Hs in HF. destruct HF as [Hokx _].
        destruct (IH Hs) as [fr1 [fr1' [-> [H2 H3]]]]. rewrite rho_miss, H2 by auto.
        eexists _, _. split; [reflexivity|]. split; [reflexivity|]. constructor; auto.
    - pose proof (frel_lookup fr fr' x Hfr) as HF. rewrite Hs in HF. destruct HF as [Hokx _].
      destruct (IH Hs) as [fr1 [fr1' [H1 [H2 H3]]]]. rewrite rho_miss_extra, H2 by auto.
      eexists _, _. split; [exact H1|]. split; [reflexivity|]. apply FR_extra; auto.
  Qed.

  Lemma erel_assign r r' x d v v' : erel r r' -> ok None x -> vrel v v' -> lookup_s (scope_of r) x = Some d ->
    exists r1 r1', assign r x v = Some r1 /\ assign r' (rho (Some d) x) v' = Some r1' /\ erel r1 r1'.
  Proof.
    intros Hr Hx Hv. induction Hr as [|fr fr' r r' Hfr Hr IH]; simpl; intros Hs; [discriminate|].
    pose proof (frel_lookup fr fr' x Hfr) as HF.
    destruct (lookup_frame_s (scope_of_frame fr) x) as [d0|] eqn:Ef.
    - inversion Hs; subst d0. destruct (frel_assign _ _ _ _ _ _ Hfr Hv Ef) as [fr1 [fr1' [-> [-> H3]]]].
      eexists _, _. split; [reflexivity|]. split; [reflexivity|]. constructor; auto.
    - destruct HF as [Hl HF]. destruct (IH Hs) as [r1 [r1' [-> [H2 H3]]]].
      assert (Hok : ok (Some d) x).
      { pose proof (erel_lookup r r' x Hr Hx) as HL. rewrite Hs in HL. apply HL. }
      rewrite (assign_frame_none _ _ v Hl), (assign_frame_none _ _ v' (HF (Some d) Hok)), H2.
      eexists _, _. split; [reflexivity|]. split; [reflexivity|]. constructor; auto.
  Qed.

  Lemma vrel_show v v' : vrel v v' -> show v = show v'.
  Proof. destruct 1; reflexivity. Qed.

  Lemma erel_nil_frame r r' : erel r r' -> erel ([] :: r) ([] :: r').
  Proof. intros. constructor; auto. constructor. Qed.

  Lemma erel_tl r r' : erel r r' -> erel (tl r) (tl r').
  Proof. destruct 1; simpl; auto. constructor. Qed.

  Lemma erel_push r r' x d v v' :
    erel r r' -> ok (Some d) x -> vrel v v' -> erel (push_binding x d v r) (push_binding (rho (Some d) x) d v' r').
  Proof. intros Hr Hok Hv. destruct Hr; simpl; repeat constructor; auto. Qed.

  Lemma bind_params_rel ps : forall vs vs' acc acc',
    okps ps -> Forall2 vrel vs vs' -> frel acc acc' ->
    frel (bind_params ps vs acc) (bind_params (rho_params ps) vs' acc').
  Proof.
    induction ps as [|[d x] ps IH]; simpl; intros vs vs' acc acc' Hok Hvs Hacc; auto.
    inversion Hok; subst. destruct Hvs; auto.
    apply IH; auto. constructor; auto.
  Qed.

  Lemma eval_binop_rel op a a' c c' :
    vrel a a' -> vrel c c' -> option_rel vrel (eval_binop op a c) (eval_binop op a' c').
  Proof.
    destruct 1; destruct 1; simpl; auto.
    - destruct op; simpl; auto; constructor.
    - destruct op; simpl; auto; constructor.
  Qed.

  Variables funs funs' : list fundef.
  Variable outs : list event -> list event -> Prop.

  Hypothesis funs_ok : forall g, option_rel sim_fun (find_fun funs g) (find_fun funs' g).
  Hypothesis outs_refl : forall o, outs o o.
  Hypothesis outs_app : forall a a' c c', outs a a' -> outs c c' -> outs (a ++ c) (a' ++ c').
  Hypothesis outs_dbg : wraps -> forall s, outs [] [EvDbg s].

  (* sc: the scope of the source's environment afterwards. Only a target with new dbg(..) may still have fuel when the
     source has run out. *)
  Definition orel {A} (sc : scope) (R : A -> A -> Prop) (m m' : outcome A) : Prop :=
    match m, m' with
    | Done o r a, Done o' r' a' => outs o o' /\ erel r r' /\ scope_of r = sc /\ R a a'
    | Fail o k, Fail o' k' => outs o o' /\ k = k'
    | OutOfFuel, _ => wraps \/ m' = OutOfFuel
    | _, _ => False
    end.

  Lemma orel_bind {A B} sc1 sc2 (R : A -> A -> Prop) (R2 : B -> B -> Prop) m m' k k' :
    orel sc1 R m m' ->
    (forall r r' a a', erel r r' -> scope_of r = sc1 -> R a a' -> orel sc2 R2 (k r a) (k' r' a')) ->
    orel sc2 R2 (bind m k) (bind m' k').
  Proof.
    intros Hm Hk. destruct m as [o r a|o e|]; simpl in Hm |- *.
    - destruct m' as [o' r' a'|o' e'|]; try contradiction.
      destruct Hm as [Ho [Hr [Hs Ha]]]. specialize (Hk _ _ _ _ Hr Hs Ha). simpl.
      destruct (k r a); simpl in Hk |- *.
      + destruct (k' r' a'); try contradiction. destruct Hk as [Ho2 H]. auto.
      + destruct (k' r' a'); try contradiction. destruct Hk as [Ho2 H]. auto.
      + destruct Hk as [W| ->]; auto.
    - destruct m'; try contradiction. exact Hm.
    - destruct Hm as [W| ->]; auto.
  Qed.

  Lemma orel_done_inv {A} sc (R : A -> A -> Prop) o r a m' :
    orel sc R (Done o r a) m' ->
    exists o' r' a', m' = Done o' r' a' /\ outs o o' /\ erel r r' /\ scope_of r = sc /\ R a a'.
  Proof. destruct m' as [o' r' a'| |]; simpl; try contradiction. eauto. Qed.

  Lemma orel_mono {A} sc (R : A -> A -> Prop) (m m1 m2 : outcome A) :
    (m1 <> OutOfFuel -> m2 = m1) -> wraps -> orel sc R m m1 -> orel sc R m m2.
  Proof.
    intros Hm W H. destruct m; simpl in *; auto; destruct m1; try contradiction; rewrite Hm by discriminate; auto.
  Qed.

  Lemma orel_emit sc m m' :
    wraps -> orel sc vrel m m' -> orel sc vrel m (bind m' (fun r v => Done [EvDbg (show v)] r v)).
  Proof.
    intros W. destruct m as [o r v| |]; [|destruct m'; auto|simpl; auto].
    destruct m' as [o' r' v'| |]; auto. simpl. intros [Ho [Hr [Hs Hv]]]. repeat split; auto.
    rewrite <- (app_nil_r o). apply outs_app; auto.
  Qed.

  Definition sims_e f g := forall sc r r' e e', erel r r' -> scope_of r = sc -> sim_e sc e e' ->
    orel sc vrel (eval_expr funs f r e) (eval_expr funs' g r' e').
  Definition sims_c f g := forall sc r r' e e', erel r r' -> scope_of r = sc -> sim_c sc e e' ->
    orel sc vrel (eval_expr funs f r e) (eval_expr funs' g r' e').
  Definition sims_a f g := forall sc r r' es es', erel r r' -> scope_of r = sc -> sim_es sc es es' ->
    orel sc (Forall2 vrel) (eval_args funs f r es) (eval_args funs' g r' es').
  Definition sims_b f g := forall sc r r' bl bl', erel r r' -> scope_of r = sc -> sim_b sc bl bl' ->
    orel (block_scope bl sc) vrel (eval_block funs f r bl) (eval_block funs' g r' bl').
  Definition sims_s f g := forall sc r r' s s', erel r r' -> scope_of r = sc -> sim_s sc s s' ->
    orel (stmt_scope s sc) vrel (exec_stmt funs f r s) (exec_stmt funs' g r' s').
  Definition sims f g := sims_e f g /\ sims_a f g /\ sims_b f g /\ sims_s f g.

  Lemma sim_call f g r2 r2' cenv cenv' ps body body' vs vs' :
    sims_b f g -> erel r2 r2' -> erel cenv cenv' -> okps ps -> sim_b (params_frame ps :: scope_of cenv) body body' ->
    Forall2 vrel vs vs' ->
    orel (scope_of r2) vrel
      (if Nat.eqb (length ps) (length vs)
       then bind (eval_block funs f (bind_params ps vs [] :: cenv) body) (fun _ v => Done [] r2 v)
       else Fail [] ErrArity)
      (if Nat.eqb (length (rho_params ps)) (length vs')
       then bind (eval_block funs' g (bind_params (rho_params ps) vs' [] :: cenv') body') (fun _ v => Done [] r2' v)
       else Fail [] ErrArity).
  Proof.
    intros IH Hr2 Hc Hps Hbody Hvs. unfold rho_params at 1. rewrite map_length, <- (Forall2_len _ _ _ Hvs).
    destruct (Nat.eqb_spec (length ps) (length vs)) as [Hlen|_]; [|simpl; auto].
    eapply orel_bind.
    - apply (IH (params_frame ps :: scope_of cenv)); auto.
      + constructor; auto. apply bind_params_rel; auto. constructor.
      + simpl. rewrite bind_params_scope, app_nil_r by auto. reflexivity.
    - intros; simpl. auto.
  Qed.

  (* a block run in a frame of its own, which is dropped afterwards: both branches of `if`, the body of `while` *)
  Lemma sim_scoped {B} (k k' : env -> value -> outcome B) f g sc sc2 (R : B -> B -> Prop) r r' bl bl' :
    sims_b f g -> erel r r' -> scope_of r = sc -> sim_b ([] :: sc) bl bl' ->
    (forall r2 r2' a a', erel r2 r2' -> scope_of r2 = sc -> vrel a a' -> orel sc2 R (k r2 a) (k' r2' a')) ->
    orel sc2 R (bind (eval_block funs f ([] :: r) bl) (fun r2 a => k (tl r2) a))
               (bind (eval_block funs' g ([] :: r') bl') (fun r2 a => k' (tl r2) a)).
  Proof.
    intros IH Hr Hsc Hb Hk. eapply orel_bind.
    - apply (IH ([] :: sc)); auto using erel_nil_frame. simpl. rewrite Hsc. reflexivity.
    - intros r2 r2' a a' Hr2 Hs2 Ha. apply Hk; auto using erel_tl.
      rewrite scope_of_tl, Hs2. apply tl_block_scope.
  Qed.

  (* sims_c, not sims_e, for the expressions: the layer SE_wrap is closed by the callers, with the same fuel and by
     contradiction in sim_lockstep, with one more unit for the new dbg(..) in sim_slack *)
  Lemma sim_step f g :
    sims_e f g -> sims_a f g -> sims_b f g -> sims_s f g ->
    sims_c (S f) (S g) /\ sims_a (S f) (S g) /\ sims_b (S f) (S g) /\ sims_s (S f) (S g).
  Proof.
    intros IHe IHa IHb IHs. repeat split.
    - intros sc r r' e e' Hr Hsc He.
      destruct He as [sc z|sc b|sc u x x' Hx Ex|sc op l l' rr rr' Hl Hrr|sc fe fe' a a' Hf Ha|sc ps ps' b b' Hps Eps Hb
                     |sc c c' t t' el el' Hc Ht Hel|sc e e' He|sc e e' He]; simpl.
      + repeat split; auto; constructor.
      + repeat split; auto; constructor.
      + (* EVar *)
        subst x'. unfold use_name. pose proof (erel_lookup r r' x Hr Hx) as HL. rewrite Hsc in HL.
        destruct (lookup_s sc x) as [d|].
        * destruct HL as [_ [v [v' [-> [-> Hv]]]]]. simpl. auto.
        * destruct HL as [-> HL]. rewrite rho_none, HL. pose proof (funs_ok x) as HF.
          destruct (find_fun funs x), (find_fun funs' x); try contradiction; simpl; auto.
          repeat split; auto. constructor.
      + (* EBin *)
        eapply orel_bind; [apply (IHe sc); auto|]. intros r1 r1' v v' Hr1 Hs1 Hv.
        eapply orel_bind; [apply (IHe sc); auto|]. intros r2 r2' w w' Hr2 Hs2 Hw.
        pose proof (eval_binop_rel op _ _ _ _ Hv Hw) as Hop.
        destruct (eval_binop op v w), (eval_binop op v' w'); try contradiction; simpl; auto.
      + (* ECall *)
        eapply orel_bind; [apply (IHe sc); auto|]. intros r1 r1' vf vf' Hr1 Hs1 Hvf.
        eapply orel_bind; [apply (IHa sc); auto|]. intros r2 r2' vs vs' Hr2 Hs2 Hvs. rewrite <- Hs2.
        destruct Hvf as [z|z| |h|cenv cenv' ps body body' Hcenv Hps Hbody]; simpl; auto.
        * pose proof (funs_ok h) as HF.
          destruct (find_fun funs h) as [fd|], (find_fun funs' h) as [fd'|]; try contradiction; simpl; auto.
          destruct HF as [Hps [-> Hbody]]. apply (sim_call f g r2 r2' [] []); auto. constructor.
        * apply sim_call; auto.
      + (* EFun *)
        subst ps' sc. repeat split; auto. constructor; auto.
      + (* EIf *)
        eapply orel_bind; [apply (IHe sc); auto|]. intros r1 r1' vc vc' Hr1 Hs1 Hvc.
        destruct Hvc as [z|z| | |]; simpl; auto.
        destruct z; apply (sim_scoped (fun r v => Done [] r v) (fun r v => Done [] r v) f g sc); auto.
        all: intros; simpl; auto.
      + (* EDbg *)
        eapply orel_bind; [apply (IHe sc); auto|]. intros r1 r1' v v' Hr1 Hs1 Hv. simpl.
        rewrite (vrel_show _ _ Hv). auto.
      + (* EPrint *)
        eapply orel_bind; [apply (IHe sc); auto|]. intros r1 r1' v v' Hr1 Hs1 Hv. simpl.
        rewrite (vrel_show _ _ Hv). repeat split; auto. constructor.
    - intros sc r r' es es' Hr Hsc He. destruct He as [sc|sc e e' rest rest' He Hrest]; simpl.
      + repeat split; auto.
      + eapply orel_bind; [apply (IHa sc); auto|]. intros r1 r1' vs vs' Hr1 Hs1 Hvs.
        eapply orel_bind; [apply (IHe sc); auto|]. intros r2 r2' v v' Hr2 Hs2 Hv. simpl. repeat split; auto.
    - intros sc r r' bl bl' Hr Hsc Hb. destruct Hb as [sc|sc s s' rest rest' Hs Hrest].
      + simpl. repeat split; auto. constructor.
      + destruct rest as [|s2 rest]; inversion Hrest; subst.
        * simpl. apply (IHs (scope_of r)); auto.
        * rewrite !eval_block_cons by discriminate.
          eapply orel_bind; [apply (IHs (scope_of r)); auto|]. intros r1 r1' a a' Hr1 Hs1 Ha.
          apply (IHb (stmt_scope s (scope_of r))); auto.
    - intros sc r r' s s' Hr Hsc Hs.
      destruct Hs as [sc d x x' e e' Hx Ex He|sc u x x' e e' Hx Ex He|sc e e' He|sc c c' b b' Hc Hb]; simpl.
      + (* SLet *)
        subst x'. eapply orel_bind; [apply (IHe sc); auto|]. intros r1 r1' v v' Hr1 Hs1 Hv. simpl.
        repeat split; auto using erel_push; try constructor. rewrite scope_of_push, Hs1. reflexivity.
      + (* SAssign *)
        subst x'. unfold use_name. eapply orel_bind; [apply (IHe sc); auto|]. intros r1 r1' v v' Hr1 Hs1 Hv.
        destruct (lookup_s sc x) as [d|] eqn:Els.
        * rewrite <- Hs1 in Els. destruct (erel_assign _ _ _ _ _ _ Hr1 Hx Hv Els) as [ra [ra' [E1 [E2 Hra]]]].
          rewrite E1, E2. simpl. repeat split; auto; try constructor. rewrite (assign_scope _ _ _ _ E1). exact Hs1.
        * pose proof (erel_lookup r1 r1' x Hr1 Hx) as HL. rewrite Hs1, Els in HL. destruct HL as [L1 L2].
          rewrite rho_none, (assign_none _ _ v L1), (assign_none _ _ v' L2). simpl. auto.
      + (* SExpr *)
        apply (IHe sc); auto.
      + (* SWhile *)
        eapply orel_bind; [apply (IHe sc); auto|]. intros r1 r1' vc vc' Hr1 Hs1 Hvc.
        destruct Hvc as [z|z| | |]; simpl; auto. destruct z.
        * apply (sim_scoped (fun r _ => exec_stmt funs f r (SWhile c b)) (fun r _ => exec_stmt funs' g r (SWhile c' b')) f g sc);
            auto.
          intros r2 r2' a a' Hr2 Hs2 Ha. apply (IHs sc); auto. constructor; auto.
        * repeat split; auto. constructor.
  Qed.

  Theorem sim_lockstep : ~ wraps -> forall f, sims f f.
  Proof.
    intros NW. induction f as [|f [IHe [IHa [IHb IHs]]]].
    - repeat split; intros sc r r' x x' Hr Hsc Hx; simpl; auto.
    - destruct (sim_step f f IHe IHa IHb IHs) as [Cc [Ca [Cb Cs]]]. repeat split; auto.
      intros sc r r' e e' Hr Hsc He. destruct He as [sc e e' W|sc e e' Hc]; [contradiction|]. apply (Cc sc); auto.
  Qed.

  (* a new dbg(..) costs one unit of fuel, and there is at most one around every expression of the source *)
  Theorem sim_slack : wraps -> forall f, sims f (2 * f).
  Proof.
    intros W. induction f as [|f [IHe [IHa [IHb IHs]]]].
    - repeat split; intros sc r r' x x' Hr Hsc Hx; simpl; auto.
    - destruct (sim_step f (2 * f) IHe IHa IHb IHs) as [Cc [Ca [Cb Cs]]].
      replace (2 * S f) with (S (S (2 * f))) by lia.
      destruct (eval_mono_step funs' (S (2 * f))) as [Me [Ma [Mb Ms]]].
      repeat split; intros sc r r' x x' Hr Hsc Hx.
      + destruct Hx as [sc e e' _ Hc|sc e e' Hc].
        * change (eval_expr funs' (S (S (2 * f))) r' (EDbg e'))
            with (bind (eval_expr funs' (S (2 * f)) r' e') (fun r1 v => Done [EvDbg (show v)] r1 v)).
          apply orel_emit; [exact W|]. apply (Cc sc); auto.
        * apply (orel_mono _ _ _ _ _ (Me r' e') W). apply (Cc sc); auto.
      + apply (orel_mono _ _ _ _ _ (Ma r' x') W). apply (Ca sc); auto.
      + apply (orel_mono _ _ _ _ _ (Mb r' x') W). apply (Cb sc); auto.
      + apply (orel_mono _ _ _ _ _ (Ms r' x') W). apply (Cs sc); auto.
  Qed.

  Lemma sims_run f g main main' : sims f g -> sim_b [[]] main main' ->
    match run f (funs, main) with
    | Some (o, res) => exists o', run g (funs', main') = Some (o', res) /\ outs o o'
    | None => wraps \/ run g (funs', main') = None
    end.
  Proof.
    intros [_ [_ [Hsim _]]] Hmain.
    assert (H : orel (block_scope main [[]]) vrel (eval_block funs f [[]] main) (eval_block funs' g [[]] main')).
    { apply Hsim; auto. repeat constructor. }
    unfold run; cbn [fst snd].
    destruct (eval_block funs f [[]] main), (eval_block funs' g [[]] main'); try contradiction; simpl.
    - destruct H as [Ho [_ [_ Hv]]]. rewrite (vrel_show _ _ Hv). eauto.
    - destruct H as [Ho ->]. eauto.
    - destruct H as [W|E]; [auto|discriminate E].
    - destruct H as [W|E]; [auto|discriminate E].
    - auto.
  Qed.
End Simulation.

Arguments vrel_show {rho ok extra wraps v v'} _.
Arguments orel_done_inv {rho ok extra wraps outs A sc R o r a m'} _.
Arguments sims_run {rho ok extra wraps funs funs' outs} f g main main' _ _.
