(* Proofs about the dispatch model LspDispatch.v for ANY table that passes the finite
   check `table_ok`; Properties/C28.v instantiates them at the generated table.

   `table_ok` is taken apart once (arms_facts, table_facts).  What one message does is then
   read off the body that `lookup` finds (handle_body), and what the loop does off the two
   booleans `is_exit_notification` and `is_shutdown` (msg_action_char). *)
From Coq Require Import List String NArith Bool.
Require Import Garden.LspDispatch.
Import ListNotations.
Open Scope string_scope.
Open Scope list_scope.

Lemma filter_map_app : forall {A B} (f : A -> option B) l1 l2,
  filter_map f (l1 ++ l2) = filter_map f l1 ++ filter_map f l2.
Proof.
  intros A B f l1 l2; induction l1 as [|x r IH]; cbn [filter_map app]; [reflexivity|].
  destruct (f x); cbn [app]; now rewrite IH.
Qed.

Definition opt_list {A} (o : option A) : list A := match o with Some x => [x] | None => [] end.

Lemma filter_map_cons : forall {A B} (f : A -> option B) x l,
  filter_map f (x :: l) = opt_list (f x) ++ filter_map f l.
Proof. intros A B f x l. cbn [filter_map]. now destruct (f x). Qed.

Lemma existsb_eqb_In : forall s l, existsb (String.eqb s) l = true <-> In s l.
Proof.
  intros s l; rewrite existsb_exists; split.
  - intros [x [Hin Heq]]. apply String.eqb_eq in Heq. now subst.
  - intros Hin. exists s. split; [assumption | apply String.eqb_refl].
Qed.

Lemma action_eqb_eq : forall a b, action_eqb a b = true -> a = b.
Proof. intros [] []; cbn; congruence. Qed.

Lemma responding_recognised : forall b, responding b = true -> recognised b = true.
Proof. intros []; cbn; congruence. Qed.

Lemma lookup_other_eq : forall arms s h,
  ~ In s (literals arms) -> lookup arms (Some s) h = lookup_other arms h.
Proof.
  induction arms as [|a rest IH]; intros s h Hn; [reflexivity|].
  cbn [lookup lookup_other literals] in *.
  destruct (a_pat a) as [l| | |]; cbn [pat_matches andb]; [| | now destruct (a_guard a); auto |reflexivity].
  - rewrite in_app_iff in Hn.
    destruct (existsb (String.eqb s) l) eqn:E; [apply existsb_eqb_In in E; tauto|]. cbn [andb].
    destruct (a_guard a); auto.
  - destruct (a_guard a); [| | |reflexivity]; (destruct (guard_holds _ h); [reflexivity | auto]).
Qed.

Record arms_facts (arms : list arm) : Prop := {
  af_literal : forall s, In s (literals arms) ->
    arm_spec s true (lookup arms (Some s) true) = true /\ arm_spec s false (lookup arms (Some s) false) = true;
  af_exit : In "exit" (literals arms);
  af_shutdown : In "shutdown" (literals arms);
  af_other_id : lookup_other arms true = BRespondError MethodNotFound ActContinue;
  af_other_noid : recognised (lookup_other arms false) = true /\ body_action (lookup_other arms false) = ActContinue;
  af_none_id : recognised (lookup arms None true) = true /\ body_action (lookup arms None true) = ActContinue
               /\ responding (lookup arms None true) = false;
  af_none_noid : recognised (lookup arms None false) = true /\ body_action (lookup arms None false) = ActContinue
}.

Lemma arms_ok_facts : forall arms, arms_ok arms = true -> arms_facts arms.
Proof.
  intros arms H. unfold arms_ok in H.
  apply andb_prop in H as [H [Hnn1 Hnn2]%andb_prop].
  apply andb_prop in H as [H [[Hni1 Hni2]%andb_prop Hni3]%andb_prop].
  apply andb_prop in H as [H [Hon1 Hon2]%andb_prop].
  apply andb_prop in H as [[[Hall Hex]%andb_prop Hsd]%andb_prop Hoi].
  constructor.
  - intros s Hin. apply andb_prop. revert s Hin. now apply forallb_forall.
  - now apply existsb_eqb_In.
  - now apply existsb_eqb_In.
  - destruct (lookup_other arms true) as [ | |[] []| | | ]; try discriminate Hoi. reflexivity.
  - auto using action_eqb_eq.
  - apply negb_true_iff in Hni3. auto using action_eqb_eq.
  - auto using action_eqb_eq.
Qed.

Lemma arms_spec : forall arms, arms_facts arms ->
  forall s h, arm_spec s h (lookup arms (Some s) h) = true.
Proof.
  intros arms F s h.
  destruct (in_dec string_dec s (literals arms)) as [Hin|Hnin].
  - destruct (af_literal arms F s Hin). now destruct h.
  - rewrite (lookup_other_eq arms s h Hnin).
    (* s is neither "shutdown" nor "exit", which are literals: the wanted action is Continue *)
    unfold arm_spec, want_action.
    destruct (String.eqb_spec s "shutdown") as [->|_]; [destruct Hnin; apply (af_shutdown arms F)|].
    destruct (String.eqb_spec s "exit") as [->|_]; [destruct Hnin; apply (af_exit arms F)|]. cbn [andb].
    destruct h.
    + rewrite (af_other_id arms F). reflexivity.
    + destruct (af_other_noid arms F) as [-> ->]. reflexivity.
Qed.

Lemma lookup_spec : forall arms, arms_facts arms -> forall m h,
  recognised (lookup arms m h) = true
  /\ body_action (lookup arms m h) = match m with Some s => want_action s h | None => ActContinue end
  /\ (h = true -> responding (lookup arms m h) = is_some m).
Proof.
  intros arms F [s|] h.
  - pose proof (arms_spec arms F s h) as H. unfold arm_spec in H.
    apply andb_prop in H. destruct H as [Hshape Hact]. apply action_eqb_eq in Hact.
    split; [|split; [exact Hact | now intros ->]].
    destruct h; [now apply responding_recognised | exact Hshape].
  - destruct h.
    + destruct (af_none_id arms F) as (Hr & Ha & Hn). auto.
    + destruct (af_none_noid arms F) as (Hr & Ha). split; [exact Hr|]. split; [exact Ha | discriminate].
Qed.

Record table_facts (t : table) : Prop := {
  tf_arms : arms_facts (t_arms t);
  tf_frame : t_frame_ok t = true;
  tf_loop : t_loop_ok t = true;
  tf_pe : t_on_parse_error t = PEErrorIfRawId InvalidRequest;
  tf_prr : t_prr t = PrrResponseOrInvalidParams;
  tf_pr : t_push_response t = PushOrLog;
  tf_perr : t_push_error t = PushOrLog;
  tf_eof : t_on_eof t = LoopBreak;
  tf_rerr : t_on_read_error t = LoopContinue;
  tf_sd : t_on_shutdown t = SetShutdown;
  tf_exit : t_exit_codes t = ExitCodes 0 1
}.

Lemma table_ok_facts : forall t, table_ok t = true -> table_facts t.
Proof.
  intros t H. unfold table_ok in H.
  destruct (arms_ok (t_arms t)) eqn:Ha; [|discriminate H]. cbn [andb] in H.
  destruct (t_frame_ok t) eqn:Hf; [|discriminate H]. cbn [andb] in H.
  destruct (t_loop_ok t) eqn:Hl; [|discriminate H]. cbn [andb] in H.
  destruct (t_on_parse_error t) as [[]| |] eqn:Hpe; try discriminate H. cbn [andb] in H.
  destruct (t_prr t) eqn:Hprr; [|discriminate H]. cbn [andb] in H.
  destruct (t_push_response t) eqn:Hpr; [|discriminate H]. cbn [andb] in H.
  destruct (t_push_error t) eqn:Hperr; [|discriminate H]. cbn [andb] in H.
  destruct (t_on_eof t) eqn:Heof; try discriminate H. cbn [andb] in H.
  destruct (t_on_read_error t) eqn:Hrerr; try discriminate H. cbn [andb] in H.
  destruct (t_on_shutdown t) eqn:Hsd; [|discriminate H]. cbn [andb] in H.
  destruct (t_exit_codes t) as [[|] [|[]]|] eqn:Hex; try discriminate H.
  constructor; reflexivity || assumption || now apply arms_ok_facts.
Qed.

Definition msg_action (m : cmsg) : action :=
  match m with
  | Wellformed w =>
    match w_method w with
    | Some s => want_action s (is_some (w_id w))
    | None => ActContinue
    end
  | _ => ActContinue
  end.

Lemma handle_body : forall t, table_facts t -> forall st w, w_outcome w = Returns ->
  forall b, lookup (t_arms t) (w_method w) (is_some (w_id w)) = b -> recognised b = true ->
  exists out st', handle t st (Wellformed w) = Step out (body_action b) st'
                  /\ response_ids out = (if responding b then opt_list (option_map IdVal (w_id w)) else [])
                  /\ shutdown_seen st' = shutdown_seen st.
Proof.
  intros t F st w Ho b Hb Hr. unfold handle, respond, respond_error.
  rewrite (tf_frame t F), Hb, (tf_prr t F), (tf_pr t F), (tf_perr t F), Ho. cbn [negb].
  destruct b as [a|a|c a|e a|a|]; [ | | | | |discriminate Hr]; cbn [body_action responding].
  - destruct (w_id w); [destruct (w_params_ok w)|]; eexists _, st; repeat split.
  - destruct (w_id w); eexists _, st; repeat split.
  - destruct (w_id w); eexists _, st; repeat split.
  - destruct (w_doc w) as [u|]; [|exists [], st; repeat split].
    exists [ODiag u], (apply_store e u st). repeat split. destruct e; reflexivity.
  - exists [], st. repeat split.
Qed.

(* `handle` is handle_message of src/lsp.rs *)
Lemma handle_ok : forall t, table_ok t = true -> forall st m, outcome_ok m ->
  exists out st', handle t st m = Step out (msg_action m) st'
                  /\ response_ids out = opt_list (answerable m)
                  /\ shutdown_seen st' = shutdown_seen st.
Proof.
  intros t Hok st m Hm. pose proof (table_ok_facts t Hok) as F.
  destruct m as [|raw|w].
  - unfold handle. rewrite (tf_frame t F), (tf_rerr t F). exists [], st. repeat split.
  - unfold handle, respond_error. rewrite (tf_frame t F), (tf_pe t F), (tf_perr t F).
    destruct raw; eexists _, st; repeat split.
  - cbn [msg_action answerable request_id].
    destruct (lookup_spec _ (tf_arms t F) (w_method w) (is_some (w_id w))) as (HR & HA & HP).
    destruct (handle_body t F st w Hm _ eq_refl HR) as (out & st' & Hh & Hr & Hs).
    exists out, st'. rewrite Hh, HA, Hr. split; [reflexivity|]. split; [|exact Hs].
    destruct (w_id w) as [i|]; cbn [is_some] in *.
    + rewrite (HP eq_refl). destruct (w_method w); reflexivity.
    + now destruct (responding _).
Qed.

(* "exit" and "shutdown" are different strings, so the order of the two tests does not matter *)
Lemma msg_action_char : forall m, msg_action m =
  if is_exit_notification m then ActExit else if is_shutdown m then ActShutdown else ActContinue.
Proof.
  intros [| |w]; cbn [msg_action is_exit_notification is_shutdown]; try reflexivity.
  destruct (w_method w) as [s|]; [|destruct (w_id w); reflexivity].
  unfold want_action. destruct (String.eqb_spec s "shutdown") as [->|_].
  - destruct (w_id w); reflexivity.
  - destruct (w_id w); cbn [is_some negb]; [now rewrite andb_false_r | rewrite andb_true_r].
    destruct (String.eqb s "exit"); reflexivity.
Qed.

Lemma Forall_processed_cons : forall (P : cmsg -> Prop) m rest, Forall P (processed (m :: rest)) ->
  P m /\ (is_exit_notification m = false -> Forall P (processed rest)).
Proof.
  intros P m rest H. cbn [processed] in H.
  destruct (is_exit_notification m); inversion H; split; (assumption || discriminate || auto).
Qed.

Lemma run_ok : forall t, table_ok t = true -> forall msgs st,
  Forall outcome_ok (processed msgs) ->
  response_ids (fst (run t st msgs)) = filter_map answerable (processed msgs)
  /\ snd (run t st msgs) = expected_final (shutdown_seen st) msgs.
Proof.
  intros t Hok. pose proof (table_ok_facts t Hok) as F.
  induction msgs as [|m rest IH]; intros st Hall.
  - cbn [run]. rewrite (tf_loop t F), (tf_eof t F). split; reflexivity.
  - apply Forall_processed_cons in Hall. destruct Hall as [Hm Hrest].
    destruct (handle_ok t Hok st m Hm) as (out & st' & Hh & Hr & Hs).
    cbn [run processed expected_final]. rewrite (tf_loop t F), Hh, msg_action_char, <- Hs. cbn [negb].
    destruct (is_exit_notification m); rewrite filter_map_cons, <- Hr; unfold response_ids in *.
    + rewrite (tf_exit t F). cbn [fst snd filter_map]. now rewrite app_nil_r.
    + specialize (Hrest eq_refl). destruct (is_shutdown m).
      * rewrite (tf_sd t F), orb_true_r. specialize (IH (set_shutdown st') Hrest).
        destruct (run t (set_shutdown st') rest) as [o f]. cbn [fst snd] in *.
        rewrite filter_map_app. destruct IH as [-> ->]. split; reflexivity.
      * rewrite orb_false_r. specialize (IH st' Hrest).
        destruct (run t st' rest) as [o f]. cbn [fst snd] in *.
        rewrite filter_map_app. destruct IH as [-> ->]. split; reflexivity.
Qed.

Lemma run_only_processed : forall t, table_ok t = true -> forall msgs st,
  Forall outcome_ok (processed msgs) ->
  run t st msgs = run t st (processed msgs).
Proof.
  intros t Hok.
  induction msgs as [|m rest IH]; intros st Hall; [reflexivity|].
  apply Forall_processed_cons in Hall. destruct Hall as [Hm Hrest].
  cbn [processed]. destruct (is_exit_notification m) eqn:Ex.
  - destruct (handle_ok t Hok st m Hm) as (out & st' & Hh & _).
    cbn [run]. rewrite Hh, msg_action_char, Ex. reflexivity.
  - specialize (Hrest eq_refl). cbn [run].
    destruct (handle t st m) as [out act st'| |]; [|reflexivity|reflexivity].
    rewrite (IH st' Hrest), (IH (set_shutdown st') Hrest). reflexivity.
Qed.

Lemma respond_crash : forall t i o a st, respond t i o a st = Crash -> o = Panics.
Proof. intros t i o a st H. unfold respond in H. destruct (t_push_response t), o; (reflexivity || discriminate). Qed.

Lemma respond_error_no_crash : forall t i c a st, respond_error t i c a st <> Crash.
Proof. intros t i c a st. unfold respond_error. destruct (t_push_error t); discriminate. Qed.

Lemma handle_crash_only_on_panic : forall t st m, handle t st m = Crash ->
  exists w, m = Wellformed w /\ w_outcome w = Panics.
Proof.
  intros t st m H. unfold handle in H. destruct (negb (t_frame_ok t)); [discriminate|].
  destruct m as [|raw|w].
  - destruct (t_on_read_error t); discriminate.
  - destruct (t_on_parse_error t); try discriminate. destruct raw; [|discriminate].
    now apply respond_error_no_crash in H.
  - exists w. split; [reflexivity|].
    destruct (lookup (t_arms t) (w_method w) (is_some (w_id w))); try discriminate.
    + destruct (w_id w); [|discriminate]. destruct (t_prr t); [|discriminate].
      destruct (w_params_ok w); [now apply respond_crash in H | now apply respond_error_no_crash in H].
    + destruct (w_id w); [|discriminate]. now apply respond_crash in H.
    + destruct (w_id w); [|discriminate]. now apply respond_error_no_crash in H.
    + destruct (w_outcome w); [destruct (w_doc w); discriminate | discriminate | reflexivity].
Qed.

Lemma handle_silent : forall t, table_ok t = true -> forall st m, outcome_ok m -> answerable m = None ->
  forall out act st', handle t st m = Step out act st' -> response_ids out = [].
Proof.
  intros t Hok st m Hm Hn out act st' H.
  destruct (handle_ok t Hok st m Hm) as [out0 [st0 [Hh [Hr _]]]].
  rewrite Hh in H. inversion H; subst. rewrite Hr, Hn. reflexivity.
Qed.

Lemma handle_unknown_method : forall t, table_ok t = true -> forall st w i s,
  w_id w = Some i -> w_method w = Some s -> ~ In s (literals (t_arms t)) ->
  handle t st (Wellformed w) = Step [OError (IdVal i) MethodNotFound] ActContinue st.
Proof.
  intros t Hok st w i s Hi Hs Hn. pose proof (table_ok_facts t Hok) as F.
  unfold handle, respond_error. rewrite (tf_frame t F), Hi, Hs. cbn [negb is_some].
  rewrite (lookup_other_eq _ s true Hn), (af_other_id _ (tf_arms t F)), (tf_perr t F). reflexivity.
Qed.

Lemma handle_malformed : forall t, table_ok t = true -> forall st,
  (forall r, handle t st (Malformed (Some r)) = Step [OError r InvalidRequest] ActContinue st)
  /\ handle t st (Malformed None) = Step [] ActContinue st
  /\ handle t st Garbage = Step [] ActContinue st.
Proof.
  intros t Hok st. pose proof (table_ok_facts t Hok) as F.
  unfold handle, respond_error. rewrite (tf_frame t F), (tf_pe t F), (tf_perr t F), (tf_rerr t F).
  cbn [negb]. repeat split.
Qed.

Lemma remove_doc_not_in : forall u l, ~ In u (remove_doc u l).
Proof.
  intros u l H. unfold remove_doc in H. apply filter_In in H. destruct H as [_ H].
  rewrite N.eqb_refl in H. discriminate.
Qed.
