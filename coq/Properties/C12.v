(* C12 -- Printed values read back as equal values: THE STRING PART.
   Statements; proofs are in LexProps.v (two conjunctions of its lemmas are
   formed in place), the model is Lex.v:
     escape    = values.rs escape_string_literal (how string_repr / the REPL
                 print a string)
     string_re = lex.rs STRING_RE as a scanner (`string_re true`: with fix_b)
     unescape  = parser.rs unescape_string (second component: number of
                 invalid escape sequences reported)
   and, below, THE LITERAL FRAGMENT (ReadLit.v / ReadLitProps.v): integers,
   strings, True / False / Unit / None, Some / Ok / Err, lists and tuples, nested
   arbitrarily.  Floats, dicts and structs: not proved (search in
   tools/props/C12.py). *)
From Coq Require Import NArith Bool List.
From Coq Require Import ZArith.
From Garden Require Import Base.Utf Lex LexProps ReadLit ReadLitProps.
Import ListNotations.
Open Scope N_scope.

(* For ALL strings s (any scalar values, including quote, backslash, newline,
   tab) and ALL following text `rest` (no side condition is needed): the STRING
   scanner applied to `escape s ++ rest` consumes exactly `escape s`, and
   unescaping the token gives back s without diagnostics. *)
Theorem string_token_roundtrip : forall s rest : list N,
  string_re true (escape s ++ rest) = Some (escape s) /\ unescape (escape s) = Some (s, 0).
Proof. exact (fun s rest => conj (string_re_escape s rest) (unescape_escape s)). Qed.
Print Assumptions string_token_roundtrip.

(* In any context (`p` before, `rest` after) the lexer iteration that starts at
   the first character of a printed string produces the token `escape s`
   spanning exactly its bytes -- it is not taken for a comment, operator,
   number or symbol. *)
Theorem printed_string_is_one_token : forall p s rest : list N,
  exists ps, lex_step cfg_fixed (p ++ escape s ++ rest) (blen p) = SToken ps (escape s) (blen (escape s))
             /\ spans ps (blen p) (blen (escape s)).
Proof. exact lex_step_escape. Qed.
Print Assumptions printed_string_is_one_token.

(* The whole lexer on a printed string: one token, no comments, no errors. *)
Theorem printed_string_lexes : forall s : list N, exists ps,
  lex (escape s) = LexOk [mktoken ps (escape s) []] [] [] /\ spans ps 0 (blen (escape s)).
Proof. exact lex_escape. Qed.
Print Assumptions printed_string_lexes.

(* Non-vacuity: the string `a\` prints as "a\\"; followed by `, "b"]` the
   scanner stops after the printed string, and `["a\\", "b"]` lexes into
   five tokens. *)
Example string_roundtrip_example :
  string_re true (escape str_a_backslash ++ rest_comma_b) = Some (escape str_a_backslash) /\
  escape str_a_backslash = [34; 97; 92; 92; 34] /\
  unescape [34; 97; 92; 92; 34] = Some (str_a_backslash, 0) /\
  exists ts, lex [91; 34; 97; 92; 92; 34; 44; 32; 34; 98; 34; 93] = LexOk ts [] [] /\
             tok_texts ts = [[91]; [34; 97; 92; 92; 34]; [44]; [34; 98; 34]; [93]].
Proof.
  exact (conj (string_re_escape str_a_backslash rest_comma_b)
        (conj eq_refl (conj (unescape_escape str_a_backslash) list_of_strings_lex))).
Qed.
Print Assumptions string_roundtrip_example.

(* STRING_RE without fix_b (`string_re false`) is refuted on exactly that input. *)
Theorem unfixed_string_re_refuted :
  string_re false (escape str_a_backslash ++ rest_comma_b) <> Some (escape str_a_backslash).
Proof. exact orig_string_re_refuted. Qed.
Print Assumptions unfixed_string_re_refuted.

(* ------------------------------------------------------------------ *)
(* The literal fragment.  `lit` / `show` / `read_literal` are ReadLit.v's own
   small value tree, printer (Value::display for these constructors) and
   reader (the success paths of the parser on this grammar: parse_integer
   with `_` separators and i64 range, unescape_string, tuple / list / call
   parsing); `printable v` says every integer in v is an i64.

   For ALL printable values v of the fragment (any nesting depth, strings over
   all scalar values, integers down to i64::MIN): the printed text lexes without
   errors or comments into tokens that the reader turns back into exactly v,
   consuming all of them.  "_partial": floats, dicts and structs are not in
   the fragment, and the evaluation of the literal (the reader interprets
   True .. Err(x) as the prelude's constructors) is modelled, not the evaluator. *)
Theorem literal_roundtrip_partial : forall v : lit, printable v = true ->
  exists toks, lex (show v) = LexOk toks [] [] /\ read_literal toks = Some (v, []).
Proof. exact literal_roundtrip_lemma. Qed.
Print Assumptions literal_roundtrip_partial.

(* the same, as the function the extracted driver runs *)
Theorem read_source_show_partial : forall v : lit, printable v = true -> read_source (show v) = Some v.
Proof. exact read_source_show. Qed.
Print Assumptions read_source_show_partial.

(* integer tokens: printing an i64 and reading the token gives it back *)
Theorem integer_token_roundtrip : forall z : Z, in_i64 z = true -> parse_i64 (show_int z) = Some z.
Proof. exact parse_show_int. Qed.
Print Assumptions integer_token_roundtrip.

(* Non-vacuity: [Some(-9223372036854775808), (1,), ("a\", True), (), [], Ok(Err(Unit))] *)
Example literal_roundtrip_example :
  printable sample_value = true /\
  read_source (show sample_value) = Some sample_value /\
  show sample_value =
    [91; 83; 111; 109; 101; 40; 45; 57; 50; 50; 51; 51; 55; 50; 48; 51; 54; 56; 53; 52; 55; 55; 53; 56; 48;
     56; 41; 44; 32; 40; 49; 44; 41; 44; 32; 40; 34; 97; 92; 92; 34; 44; 32; 84; 114; 117; 101; 41; 44; 32;
     40; 41; 44; 32; 91; 93; 44; 32; 79; 107; 40; 69; 114; 114; 40; 85; 110; 105; 116; 41; 41; 93].
Proof. exact sample_value_roundtrip. Qed.
Print Assumptions literal_roundtrip_example.

(* 9223372036854775808 is refused (the parser reports it as out of range),
   -9223372036854775808 and 1_000 are read. *)
Example integer_range_example :
  parse_i64 [57; 50; 50; 51; 51; 55; 50; 48; 51; 54; 56; 53; 52; 55; 55; 53; 56; 48; 56] = None /\
  parse_i64 [45; 57; 50; 50; 51; 51; 55; 50; 48; 51; 54; 56; 53; 52; 55; 55; 53; 56; 48; 56] =
    Some (-9223372036854775808)%Z /\
  parse_i64 [49; 95; 48; 48; 48] = Some 1000%Z.
Proof. exact out_of_range_refused. Qed.
Print Assumptions integer_range_example.
