(* C14 -- Subtyping is a preorder with the documented variance.
   Statements only: the model is Types.v, the proofs are in TypesProps.v (closed examples
   are evaluated here).

   `is_subtype a b : bool` is the executable mirror of `is_subtype` in src/garden_type.rs
   (the relation both the checker and the runtime's `check_type` use).  It is defined as
   the fuelled mirror run with fuel `ty_size a + ty_size b`; `sub_fuel_enough` shows that
   this (and any larger) fuel never runs out, and `sub_characteristic` that the function
   satisfies the one-step unfolding of the Rust `match`, so fuel plays no role below.

   ty_wf Sg t: every user-defined name in t is applied to exactly `Sg name` arguments.
   ty_no_err t: no checker Error inside t. *)
From Coq Require Import List Bool Arith NArith String.
From Garden Require Import Types TypesProps.
Import ListNotations.

Theorem sub_fuel_enough : forall n a b,
  ty_size a + ty_size b <= n -> is_subtype_fuel n a b = Some (is_subtype a b).
Proof. exact sub_fuel_enough_lemma. Qed.
Print Assumptions sub_fuel_enough.

Theorem sub_characteristic : forall a b, is_subtype a b = sub_stepb is_subtype a b.
Proof. exact sub_unfold. Qed.
Print Assumptions sub_characteristic.

(* Reflexive -- on every type, well-formed or not. *)
Theorem sub_refl : forall a, is_subtype a a = true.
Proof. exact sub_refl_lemma. Qed.
Print Assumptions sub_refl.

(* Transitive on well-formed types; Error must not occur in the middle type. *)
Theorem sub_trans : forall (Sg : sig) a b c,
  ty_wf Sg a = true -> ty_wf Sg b = true -> ty_wf Sg c = true -> ty_no_err b = true ->
  is_subtype a b = true -> is_subtype b c = true -> is_subtype a c = true.
Proof. exact sub_trans_lemma. Qed.
Print Assumptions sub_trans.

(* Non-vacuity: a well-formed, error-free chain through both variances,
   Fun<(Any), List<NoValue>>  <:  Fun<(Int), List<Int>>  <:  Fun<(NoValue), Any>,
   none of whose converses holds. *)
Example sub_trans_example :
  let a := TFun 0 [TAny] (t_list no_value) in
  let b := TFun 0 [t_int] (t_list t_int) in
  let c := TFun 0 [no_value] TAny in
  ty_ok prelude_sig a = true /\ ty_ok prelude_sig b = true /\ ty_ok prelude_sig c = true /\
  is_subtype a b = true /\ is_subtype b c = true /\ is_subtype a c = true /\
  is_subtype b a = false /\ is_subtype c b = false.
Proof. vm_compute. repeat split. Qed.
Print Assumptions sub_trans_example.

(* Well-formedness is necessary: `zip` truncates in the UserDefined arm, so
   Foo<Int, String> <: Foo<Int> <: Foo<Int, Bool> but not Foo<Int, String> <: Foo<Int, Bool>. *)
Theorem sub_trans_needs_wf :
  let a := TUser KStruct (nm "Foo") [t_int; t_string] in
  let b := TUser KStruct (nm "Foo") [t_int] in
  let c := TUser KStruct (nm "Foo") [t_int; t_bool] in
  ty_no_err a = true /\ ty_no_err b = true /\ ty_no_err c = true /\
  is_subtype a b = true /\ is_subtype b c = true /\ is_subtype a c = false.
Proof. vm_compute. repeat split. Qed.
Print Assumptions sub_trans_needs_wf.

(* Error-freedom of the middle type is necessary: Int <: _ <: String. *)
Theorem sub_trans_needs_no_err :
  is_subtype t_int (TErr 0) = true /\ is_subtype (TErr 0) t_string = true /\ is_subtype t_int t_string = false.
Proof. vm_compute. repeat split. Qed.
Print Assumptions sub_trans_needs_no_err.

(* Any is the top type ... *)
Theorem any_top : forall a, is_subtype a TAny = true.
Proof. exact sub_any_r. Qed.
Print Assumptions any_top.

(* ... strictly: nothing error-free other than Any is above Any. *)
Theorem any_top_strict : forall b, ty_no_err b = true -> is_subtype TAny b = true -> b = TAny.
Proof. exact any_top_strict_lemma. Qed.
Print Assumptions any_top_strict.

(* NoValue is the bottom type ... *)
Theorem novalue_bottom : forall b, is_subtype no_value b = true.
Proof. intros b. exact (sub_novalue_l no_value b eq_refl). Qed.
Print Assumptions novalue_bottom.

(* ... strictly: only (types named) NoValue are below NoValue. *)
Theorem novalue_bottom_strict : forall a,
  ty_no_err a = true -> is_subtype a no_value = true -> is_no_value a = true.
Proof. exact novalue_bottom_strict_lemma. Qed.
Print Assumptions novalue_bottom_strict.

(* Tuples: same length and pointwise (covariant). *)
Theorem tuple_covariant : forall l1 l2,
  is_subtype (TTuple l1) (TTuple l2) = true <-> Forall2 (fun x y => is_subtype x y = true) l1 l2.
Proof. exact tuple_covariant_lemma. Qed.
Print Assumptions tuple_covariant.

(* User-defined types are covariant in their arguments (kind is ignored) ... *)
Theorem user_covariant : forall k1 k2 n a1 a2,
  Forall2 (fun x y => is_subtype x y = true) a1 a2 -> is_subtype (TUser k1 n a1) (TUser k2 n a2) = true.
Proof. exact user_covariant_lemma. Qed.
Print Assumptions user_covariant.

(* ... and nominal: at equal arity nothing else relates two (non-bottom) user types. *)
Theorem user_covariant_inv : forall k1 k2 n1 n2 a1 a2,
  n1 <> n_NoValue -> List.length a1 = List.length a2 ->
  is_subtype (TUser k1 n1 a1) (TUser k2 n2 a2) = true ->
  n1 = n2 /\ Forall2 (fun x y => is_subtype x y = true) a1 a2.
Proof. exact user_covariant_inv_lemma. Qed.
Print Assumptions user_covariant_inv.

(* Functions: contravariant in the parameters, covariant in the result. *)
Theorem fun_contra_co : forall t1 p1 r1 t2 p2 r2,
  is_subtype (TFun t1 p1 r1) (TFun t2 p2 r2) = true <->
  Forall2 (fun x y => is_subtype y x = true) p1 p2 /\ is_subtype r1 r2 = true.
Proof. exact fun_contra_co_lemma. Qed.
Print Assumptions fun_contra_co.

(* Non-vacuity of the variance statements: each is strict somewhere. *)
Example variance_example :
  is_subtype (t_list no_value) (t_list t_int) = true /\ is_subtype (t_list t_int) (t_list no_value) = false /\
  is_subtype (TTuple [no_value; t_int]) (TTuple [t_string; TAny]) = true /\
  is_subtype (TTuple [t_int]) (TTuple [t_int; t_int]) = false /\
  is_subtype (TFun 0 [TAny] t_int) (TFun 0 [t_int] t_int) = true /\
  is_subtype (TFun 0 [t_int] t_int) (TFun 0 [TAny] t_int) = false /\
  is_subtype (TParam (nm "T")) (TParam (nm "T")) = true /\ is_subtype (TParam (nm "T")) (TParam (nm "U")) = false.
Proof. vm_compute. repeat split. Qed.
Print Assumptions variance_example.

(* The byte-list constants are the names they claim to be. *)
Example names_example :
  n_NoValue = nm "NoValue" /\ n_Int = nm "Int" /\ n_List = nm "List" /\ n_Result = nm "Result".
Proof. repeat split. Qed.
Print Assumptions names_example.
