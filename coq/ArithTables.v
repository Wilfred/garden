(* Ties the generated tables (what eval.rs does) to the proved arm
   shapes.  `tables_ok_lemma` is the obligation a source edit breaks. *)
From Coq Require Import ZArith List.
From Garden Require Import Base.Int64 Arith ArithSpec ArithProps gen.Tables.
Import ListNotations.
Open Scope Z_scope.

Lemma tables_ok_lemma : forall o, arm_in (int_arm o) (ok_arms o) = true.
Proof. intros o; destruct o; vm_compute; reflexivity. Qed.

Lemma upd_tables_ok_lemma : forall u, arm_in (upd_arm u) (ok_upd_arms u) = true.
Proof. intros u; destruct u; vm_compute; reflexivity. Qed.

Lemma operands_ok_lemma : int_operands_ok = true.
Proof. reflexivity. Qed.

Lemma int_binop_spec_lemma : forall oc o a b, in64 a = true -> in64 b = true ->
  arm_sem oc (int_arm o) a b = spec o a b.
Proof.
  intros oc o a b Ha Hb. apply ok_arms_correct; auto. apply arm_in_In, tables_ok_lemma.
Qed.

Lemma upd_spec_lemma : forall oc u a b, in64 a = true -> in64 b = true ->
  arm_sem oc (upd_arm u) a b = arm_sem oc (int_arm (upd_as_binop u)) a b.
Proof.
  intros oc u a b Ha Hb. rewrite int_binop_spec_lemma by assumption.
  apply ok_upd_arms_correct. apply arm_in_In, upd_tables_ok_lemma.
Qed.

Lemma no_panic_lemma : forall oc o a b, in64 a = true -> in64 b = true ->
  arm_sem oc (int_arm o) a b <> Panic.
Proof.
  intros oc o a b Ha Hb E. rewrite int_binop_spec_lemma in E by assumption.
  pose proof (spec_total o a b Ha Hb) as H. now rewrite E in H.
Qed.

Lemma upd_no_panic_lemma : forall oc u a b, in64 a = true -> in64 b = true ->
  arm_sem oc (upd_arm u) a b <> Panic.
Proof.
  intros oc u a b Ha Hb. rewrite upd_spec_lemma by assumption. now apply no_panic_lemma.
Qed.

Lemma results_in_range_lemma : forall oc o a b z, in64 a = true -> in64 b = true ->
  arm_sem oc (int_arm o) a b = Val z -> in64 z = true.
Proof.
  intros oc o a b z Ha Hb. rewrite int_binop_spec_lemma by assumption. now apply spec_in_range.
Qed.
