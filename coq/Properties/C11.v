(* C11 -- Incremental session input equals running it as one program.
   Statements; model Session.v, proofs SessionProps.v and RefineSession.v; the
   instances are checked by evaluation in place.

   Definitions (functions, enums) are STATIC in the model: the program `p` is
   fixed for the whole history.  What varies between requests is the evaluator
   state: the toplevel frame's binding block (toplevel variables) and value
   stack.

   WHAT IS PROVED: requests only replace the pending expressions of the current
   frame -- bindings, values, output are what the previous request left
   (`run_keeps_scope`); a toplevel `let` leaves its binding in the toplevel
   block where every later request finds it (`toplevel_lets_persist`).
   THE GENERAL STATEMENT "for every error-free history the last value of the
   incremental run equals that of the batch run" is `incremental_eq_batch_partial`
   at the end of this file (proofs in RefineSession.v, through the refinement
   of the reference semantics Ref.v; see the comment there for the fragment
   and the exact meaning of error-free).  `incremental_eq_batch_partial_instance`
   and `incremental_eq_batch_partial_all_splits` are machine-checked INSTANCES
   (one history of four inputs with a let, an assignment, calls and
   expressions, and every way of splitting it into requests). *)
From Coq Require Import ZArith List.
From Garden Require Import Arith Machine Session SessionProps.
Import ListNotations.
Open Scope nat_scope.

Theorem run_keeps_scope : forall s exprs s2,
  install s exprs = Some s2 ->
  exists f rest, stack s = f :: rest /\
    stack s2 = set_todo f (map (fun e => (SNot, e)) exprs) :: rest /\
    out s2 = out s /\ ticks s2 = ticks s.
Proof. exact install_keeps_scope. Qed.
Print Assumptions run_keeps_scope.

Theorem toplevel_lets_persist : forall p s f t m x rhs v vs b bs,
  stack s = [f] -> todo f = (SDone, ELet m x rhs) :: t -> vals f = v :: vs -> blocks f = b :: bs ->
  N.eqb x underscore = false ->
  interrupted s = false -> tick_limit s = None -> stack_limit s = None ->
  exists s' f', step p s = Next s' /\ stack s' = [f'] /\ blocks f' = ((x, v) :: b) :: bs /\
    forall exprs s2, install s' exprs = Some s2 ->
      exists f2, stack s2 = [f2] /\ blocks f2 = ((x, v) :: b) :: bs /\ get_var p f2 x = Some v.
Proof. exact toplevel_lets_persist_lemma. Qed.
Print Assumptions toplevel_lets_persist.

(* ---- checked instances ------------------------------------------------------ *)
Definition mt (u : bool) (a b : N) : meta := {| used := u; pstart := a; pend := b |}.
Definition ex_prog : prog :=
  {| globals := [(20%N, VFun 20%N [])];
     funs := [(20%N, {| fparams := [30%N];
                        fbody := [ EBin (mt true 11 16) (BInt OMul) (EVar (mt true 11 12) 30%N) (EInt (mt true 15 16) 2) ] |})] |}.
Definition a : ident := 40%N.
(* let a = 1 *)
Definition in1 : list expr := [ELet (mt true 0 9) a (EInt (mt true 8 9) 1)].
(* a = a + 1 *)
Definition in2 : list expr := [EAssign (mt true 10 19) a (10%N, 11%N) (EBin (mt true 14 19) (BInt OAdd) (EVar (mt true 14 15) a) (EInt (mt true 18 19) 1))].
(* f(a)  a *)
Definition in3 : list expr := [ECall (mt true 20 24) (EVar (mt true 20 21) 20%N) [EVar (mt true 22 23) a]; EVar (mt true 25 26) a].
(* f(a) + 10 *)
Definition in4 : list expr :=
  [EBin (mt true 27 36) (BInt OAdd) (ECall (mt true 27 31) (EVar (mt true 27 28) 20%N) [EVar (mt true 29 30) a]) (EInt (mt true 34 36) 10)].

Definition last_response (l : list response) : response := last l RespNoValue.

Example incremental_eq_batch_partial_instance :
  last_response (snd (run_history all_fixes 300 ex_prog fresh [RRun in1; RRun in2; RRun in3; RRun in4])) =
  last_response (snd (run_history all_fixes 300 ex_prog fresh [RRun (in1 ++ in2 ++ in3 ++ in4)])) /\
  last_response (snd (run_history all_fixes 300 ex_prog fresh [RRun (in1 ++ in2 ++ in3 ++ in4)])) = RespValue (VInt 14).
Proof. vm_compute. split; reflexivity. Qed.
Print Assumptions incremental_eq_batch_partial_instance.

(* every split of the same four inputs into requests gives the same last value *)
Example incremental_eq_batch_partial_all_splits :
  forallb (fun h => match last_response (snd (run_history all_fixes 300 ex_prog fresh h)) with
                    | RespValue (VInt 14) => true | _ => false end)
    [ [RRun in1; RRun (in2 ++ in3 ++ in4)]; [RRun (in1 ++ in2); RRun (in3 ++ in4)]; [RRun (in1 ++ in2 ++ in3); RRun in4];
      [RRun in1; RRun in2; RRun (in3 ++ in4)]; [RRun in1; RRun (in2 ++ in3); RRun in4]; [RRun (in1 ++ in2); RRun in3; RRun in4] ] = true.
Proof. vm_compute. reflexivity. Qed.
Print Assumptions incremental_eq_batch_partial_all_splits.

(* the toplevel variable really is in the toplevel block after the first request *)
Example toplevel_let_persists_instance :
  match stack (fst (run_history all_fixes 300 ex_prog fresh [RRun in1])) with
  | [f] => blocks f = [[(a, VInt 1)]] /\ todo f = []
  | _ => False
  end.
Proof. vm_compute. split; reflexivity. Qed.
Print Assumptions toplevel_let_persists_instance.

(* ---- the GENERAL theorem (proofs in RefineSession.v) -------------------------
   Obtained from the refinement of the reference semantics (C05, RefineProps.v).
   FRAGMENT: run requests whose inputs are non-empty lists of toplevel
   expressions in Refine.in_fragment (the whole modelled core language except
   break / continue outside statement position), annotated as the parser does
   (Refine.well_annotated_toplevel); definitions (`prog`) static and well
   formed (prog_good); all_fixes; no tick / stack limits, no interrupts (the
   fresh session).  ERROR-FREE means: the reference semantics Ref.v evaluates
   the inputs, one after the other from the state the previous one left, to
   values (`ref_incremental ... = Some`), and the session answers every request
   with a value and is left with nothing pending (`session_values ... = Some`:
   RespValue and `idle`), request by request and for the concatenated input.
   The session fuels are arbitrary.  NOT covered: histories with definitions
   between requests, errors, commands other than run, inputs outside the
   fragment (differential testing in tools/props/C11.py). *)
From Garden Require Import Ref Refine RefineSession.

(* Ref.v threads its state through a concatenation: running the inputs one
   after the other gives, as last value and final state, what running their
   concatenation gives. *)
Theorem ref_incremental_eq_batch_partial : forall p fuel d reqs s l s',
  ref_incremental p fuel s reqs = Some (l, s') -> reqs <> [] -> Forall (fun r => r <> []) reqs ->
  run_toplevel p fuel s (concat reqs) = (Ok (last l d), s').
Proof. exact RefineSession.ref_incremental_eq_batch. Qed.
Print Assumptions ref_incremental_eq_batch_partial.

(* `session_values` is a run of the session model (Session.run_history) in
   which every response is a value (and every request leaves the session idle) *)
Theorem session_values_is_run_history : forall hfuel p reqs s s2 l,
  session_values hfuel p s reqs = Some (s2, l) ->
  run_history all_fixes hfuel p s (map RRun reqs) = (s2, map RespValue l).
Proof. exact RefineSession.session_values_history. Qed.
Print Assumptions session_values_is_run_history.

(* Incremental = batch: the values the session reports request by request are
   the reference's; the one request with all the inputs reports the last of
   them; both runs print the same output. *)
Theorem incremental_eq_batch_partial : forall p rfuel hfuel hfuel' reqs lref sref s_inc l_inc s_bat l_bat,
  prog_good p = true -> reqs <> [] -> Forall input_ok reqs ->
  ref_incremental p rfuel (mkSt [[]] []) reqs = Some (lref, sref) ->
  session_values hfuel p Session.fresh reqs = Some (s_inc, l_inc) ->
  session_values hfuel' p Session.fresh [concat reqs] = Some (s_bat, l_bat) ->
  l_inc = lref /\ l_bat = [last lref vunit] /\ last l_inc vunit = last l_bat vunit /\ out s_inc = out s_bat.
Proof. exact RefineSession.incremental_eq_batch. Qed.
Print Assumptions incremental_eq_batch_partial.

(* non-vacuity: the four-input history above satisfies every hypothesis *)
Example incremental_eq_batch_hypotheses_hold :
  prog_good ex_prog = true /\ Forall input_ok [in1; in2; in3; in4] /\
  (exists sref, ref_incremental ex_prog 50 (mkSt [[]] []) [in1; in2; in3; in4] = Some ([vunit; vunit; VInt 2; VInt 14], sref)) /\
  (exists s1, session_values 300 ex_prog Session.fresh [in1; in2; in3; in4] = Some (s1, [vunit; vunit; VInt 2; VInt 14])) /\
  (exists s2, session_values 300 ex_prog Session.fresh [concat [in1; in2; in3; in4]] = Some (s2, [VInt 14])).
Proof.
  split; [reflexivity|]. split.
  { repeat constructor; try discriminate. }
  split; [eexists; vm_compute; reflexivity|]. split; eexists; vm_compute; reflexivity.
Qed.
Print Assumptions incremental_eq_batch_hypotheses_hold.
